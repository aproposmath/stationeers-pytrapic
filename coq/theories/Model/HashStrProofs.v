From Coq Require Import ZArith NArith String Ascii List Bool Lia.
From PV Require Import Base.CRC32 Model.Tables Model.FormatNum Model.HashStr.
Local Open Scope Z_scope.

(* a number below 2^n shares no bit with a number shifted left by n: below n the shifted
   number has none, from n on the small one has none *)
Lemma land_shiftl_small v c n : 0 <= n -> 0 <= c < 2 ^ n -> Z.land (Z.shiftl v n) c = 0.
Proof.
  intros Hn Hc. apply Z.bits_inj'. intros i Hi. rewrite Z.land_spec, Z.bits_0.
  destruct (Z.ltb_spec i n) as [L|L].
  - rewrite Z.shiftl_spec_low by exact L. reflexivity.
  - rewrite <- (Z.mod_small c (2 ^ n)) by exact Hc. rewrite Z.mod_pow2_bits_high by lia.
    apply andb_false_r.
Qed.

Lemma lor_shiftl_add v c n : 0 <= n -> 0 <= c < 2 ^ n -> Z.lor (Z.shiftl v n) c = v * 2 ^ n + c.
Proof.
  intros Hn Hc. pose proof (land_shiftl_small v c n Hn Hc) as D.
  rewrite <- Z.lxor_lor, <- Z.add_nocarry_lxor by exact D.
  rewrite Z.shiftl_mul_pow2 by exact Hn. reflexivity.
Qed.

(* calc_hash: xor with the sign bit, then subtract it *)
Lemma lxor_sign_low c : 0 <= c < 2 ^ 31 -> Z.lxor c (2 ^ 31) = c + 2 ^ 31.
Proof.
  intros H. rewrite Z.add_nocarry_lxor; [reflexivity|].
  rewrite Z.land_comm. apply (land_shiftl_small 1 c 31); lia.
Qed.
Lemma lxor_sign_high c : 2 ^ 31 <= c < 2 ^ 32 -> Z.lxor c (2 ^ 31) = c - 2 ^ 31.
Proof.
  intros H. replace c with (c - 2 ^ 31 + 2 ^ 31) at 1 by lia.
  rewrite <- lxor_sign_low by lia. rewrite Z.lxor_assoc, Z.lxor_nilpotent. apply Z.lxor_0_r.
Qed.

Theorem calc_hash_is_signed c : (c < 2 ^ 32)%N ->
  heval model_calc_hash (Z.of_N c) = signed32 c.
Proof.
  intros Hc. unfold signed32. cbn [heval model_calc_hash]. change 2147483648 with (2 ^ 31).
  destruct (N.ltb_spec c 0x80000000); [rewrite lxor_sign_low|rewrite lxor_sign_high]; lia.
Qed.

(* CRC-32 values are 32-bit: the premise of the previous theorem always holds.  "Below 2^32" is
   carried through the bit operations as "log2 below 32", for which the library has the facts
   about lxor and shiftr. *)
Lemma lt_pow2_log2 a n : (0 < n -> (a < 2 ^ n <-> N.log2 a < n))%N.
Proof.
  intros Hn. destruct a as [|p]; [|apply N.log2_lt_pow2; lia].
  cbn. pose proof (N.pow_nonzero 2 n). lia.
Qed.

Lemma log2_lxor_lt a b n : (N.log2 a < n -> N.log2 b < n -> N.log2 (N.lxor a b) < n)%N.
Proof. pose proof (N.log2_lxor a b). lia. Qed.

Lemma crc_bits_log2 n : forall c, (N.log2 c < 32 -> N.log2 (crc_bits n c) < 32)%N.
Proof.
  induction n as [|n IH]; intros c Hc; [exact Hc|]. cbn [crc_bits]. apply IH.
  assert (N.log2 (N.shiftr c 1) < 32)%N as S by (rewrite N.log2_shiftr; lia).
  destruct (N.odd c); [apply log2_lxor_lt; [exact S|reflexivity]|exact S].
Qed.

(* stated for a variable f: with crc_byte in its place the kernel, converting one step of the fold,
   unrolls the eight rounds of crc_bits *)
Lemma fold_left_inv {A B} (P : A -> Prop) (Q : B -> Prop) (f : A -> B -> A) :
  (forall a b, P a -> Q b -> P (f a b)) -> forall l, Forall Q l -> forall a, P a -> P (fold_left f l a).
Proof.
  intros Hf l HF. induction HF as [|b l Hb _ IH]; intros a Ha; [exact Ha|]. apply IH, Hf; assumption.
Qed.

Theorem crc32_lt bs : Forall (fun b => (b < 256)%N) bs -> (crc32_bytes bs < 2 ^ 32)%N.
Proof.
  intros HF. unfold crc32_bytes. apply lt_pow2_log2; [lia|]. apply log2_lxor_lt; [|reflexivity].
  apply (fold_left_inv (fun a => N.log2 a < 32)%N (fun b => b < 256)%N crc_byte); [|exact HF|reflexivity].
  intros c b Hc Hb. apply crc_bits_log2, log2_lxor_lt; [exact Hc|]. apply (lt_pow2_log2 b 8) in Hb; lia.
Qed.

Lemma bytes_of_string_lt s : Forall (fun b => (b < 256)%N) (bytes_of_string s).
Proof.
  unfold bytes_of_string. induction s as [|a s IH]; cbn; constructor; [|exact IH].
  apply N_ascii_bounded.
Qed.

Theorem calc_hash_of_string s :
  heval model_calc_hash (Z.of_N (crc32_bytes (bytes_of_string s))) = signed_crc s.
Proof. apply calc_hash_is_signed, crc32_lt, bytes_of_string_lt. Qed.

Theorem str_pack_is_be256 s : str_pack s = be256 s.
Proof.
  unfold str_pack, be256. generalize 0.
  (* for every accumulator, by induction on the proof that the bytes are below 256 *)
  induction (bytes_of_string_lt s) as [|b bs Hb _ IH]; intros acc; [reflexivity|]. cbn [fold_left].
  rewrite (lor_shiftl_add acc (Z.of_N b) 8) by lia. apply IH.
Qed.

Local Open Scope string_scope.

Lemma prefix_app p s : String.prefix p (p ++ s) = true.
Proof.
  induction p as [|a p IH]; cbn; [destruct s; reflexivity|].
  destruct (ascii_dec a a); [exact IH|contradiction].
Qed.

Lemma substring_app_drop p s :
  String.substring (String.length p) (String.length (p ++ s) - String.length p) (p ++ s) = s.
Proof.
  induction p as [|a p IH]; cbn; [|exact IH].
  rewrite Nat.sub_0_r. induction s as [|b s IHs]; cbn; [reflexivity|]. f_equal. exact IHs.
Qed.

(* drop_last2 looks two characters ahead, hence the three cases before it unfolds *)
Lemma drop_last2_app n a b : drop_last2 (n ++ String a (String b "")) = n.
Proof.
  induction n as [|c [|d [|e n]] IH]; [reflexivity..|].
  cbn [append drop_last2] in *. rewrite IH. reflexivity.
Qed.

Lemma inner_app pre n a b : inner pre (pre ++ n ++ String a (String b "")) = Some n.
Proof. unfold inner. rewrite prefix_app, substring_app_drop, drop_last2_app. reflexivity. Qed.

(* a formatted integer starts with '$', '-' or a digit, so it is neither a HASH nor a STR token
   and is read as an integer literal *)
Lemma tok_value_format_int hashes z : tok_value (format_int hashes z) = Some z.
Proof.
  (* enough: tok_value of a formatted integer falls through to read_int_literal *)
  rewrite <- (format_int_roundtrip hashes z). unfold format_int.
  destruct ((z <=? 10000)%Z || zmem z hashes); [|reflexivity].
  unfold dec_str. destruct z as [|p|p]; try reflexivity. cbn. destruct (Pos.to_uint p); reflexivity.
Qed.

(* whatever the kind of token: if the text and the formatted number both have the value v, so has
   what any mode prints *)
Lemma tok_value_mode_independent hashes num text m v :
  tok_value text = Some v -> tok_value (format_int hashes num) = Some v ->
  tok_value (print_rendered hashes (apply_output_mode num text m)) = Some v.
Proof.
  intros T F. destruct m; cbn [apply_output_mode]; try destruct (Nat.ltb _ _); assumption.
Qed.

Theorem hash_token_value_mode_independent hashes name m :
  tok_value (print_rendered hashes (compute_hash name m)) = Some (signed_crc name).
Proof.
  apply tok_value_mode_independent; [|apply tok_value_format_int].
  unfold tok_value, hash_text. rewrite inner_app. reflexivity.
Qed.

Theorem str_token_value_mode_independent hashes s m :
  tok_value (print_rendered hashes (compute_string s m)) = Some (be256 s).
Proof.
  apply tok_value_mode_independent; [|rewrite <- str_pack_is_be256; apply tok_value_format_int].
  unfold tok_value, str_text. rewrite inner_app. reflexivity.
Qed.

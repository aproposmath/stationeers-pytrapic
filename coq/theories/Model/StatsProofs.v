From Coq Require Import List NArith ZArith String Lia.
From PV Require Import Base.PyStr Model.Stats.
Import ListNotations.

Lemma count_nl_cons c r : count_nl (c :: r) = ((if N.eqb c 10 then 1 else 0) + count_nl r)%nat.
Proof. unfold count_nl, count_char. cbn. destruct (N.eqb c 10); reflexivity. Qed.

Lemma last_cons {A} (c : A) r d : last (c :: r) d = last r c.
Proof.
  revert c d; induction r as [|x r IH]; intros c d; [reflexivity|].
  change (last (x :: r) d = last (x :: r) c). rewrite !IH. reflexivity.
Qed.

(* the line under construction counts if the text ends without a "\n"; d stands for the last
   character before l: a "\n" when no line is open *)
Lemma splitlines_aux_len l : forall cur d,
  (forall c, In c l -> is_lb c = true -> c = 10%N) ->
  N.eqb d 10 = match cur with [] => true | _ => false end ->
  List.length (splitlines_aux l cur false) = count_nl l + (if N.eqb (last l d) 10 then 0 else 1).
Proof.
  induction l as [|c r IH]; intros cur d Hlb Hd.
  - cbn. rewrite Hd. destruct cur; reflexivity.
  - cbn [splitlines_aux andb]. rewrite count_nl_cons, last_cons.
    assert (forall c, In c r -> is_lb c = true -> c = 10%N) as Hr
      by (intros; apply Hlb; [right|]; assumption).
    destruct (is_lb c) eqn:E.
    + rewrite (Hlb c (or_introl eq_refl) E). cbn [List.length N.eqb Pos.eqb].
      rewrite (IH [] 10%N Hr eq_refl). reflexivity.
    + destruct (N.eqb_spec c 10) as [->|Hc]; [discriminate E|].
      apply IH; [exact Hr|]. apply N.eqb_neq, Hc.
Qed.

Theorem splitlines_line_count s : plain_text s -> List.length (splitlines s) = line_count s.
Proof.
  intros (Hne & Hlb & Hlast). unfold splitlines, line_count.
  rewrite (splitlines_aux_len s [] 10%N Hlb eq_refl).
  destruct s as [|c r]; [contradiction|]. rewrite last_cons in *.
  apply N.eqb_neq in Hlast. rewrite Hlast. reflexivity.
Qed.

Theorem stats_meaning s nregs : plain_text s ->
  let r := run_stats s nregs model_stats [] in
  lookupZ "num_lines" r = Z.of_nat (line_count s) /\
  lookupZ "num_bytes" r = Z.of_nat (crlf_size s) /\
  lookupZ "num_registers" r = Z.of_nat nregs.
Proof.
  intros H. cbn. rewrite (splitlines_line_count s H). unfold crlf_size, line_count. repeat split; lia.
Qed.

Lemma stats_empty nregs :
  let r := run_stats [] nregs model_stats [] in
  lookupZ "num_lines" r = 0%Z /\ lookupZ "num_bytes" r = Z.of_nat (crlf_size []).
Proof. split; reflexivity. Qed.

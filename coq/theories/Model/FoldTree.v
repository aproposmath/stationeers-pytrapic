(* Compile-time evaluation of whole expression trees (the recursion of utils.is_constant: a node
   is folded when all of its children are constants, with the table's lambda for its operator)
   against their run-time evaluation (the instruction named in the same table entry applied to the
   values the children compute at run time).  The per-operator theorems of FoldProofs.v are lifted
   to trees by induction. *)
From Coq Require Import List String PrimFloat.
From PV Require Import Model.Fold Model.FoldProofs.
Import ListNotations.
Local Open Scope string_scope.

Inductive ctree :=
| CLeaf (f : float)
| CBin (op : string) (a b : ctree)
| CUn (op : string) (a : ctree).

Fixpoint find_entry (k : string) (l : list (string * string * pexpr)) : option (string * pexpr) :=
  match l with [] => None | (a, opc, e) :: r => if String.eqb a k then Some (opc, e) else find_entry k r end.

Section T.
Variables bt ut : list (string * string * pexpr).

(* what the compiler computes *)
Fixpoint fold_tree (t : ctree) : option float :=
  match t with
  | CLeaf f => Some f
  | CBin op a b =>
      match fold_tree a, fold_tree b, find_entry op bt with
      | Some x, Some y, Some (_, lam) => fold2 lam x y
      | _, _, _ => None
      end
  | CUn op a =>
      match fold_tree a, find_entry op ut with
      | Some x, Some (_, lam) => fold1 lam x
      | _, _ => None
      end
  end.

(* what the chip computes when nothing is folded *)
Fixpoint run_tree (t : ctree) : option float :=
  match t with
  | CLeaf f => Some f
  | CBin op a b =>
      match run_tree a, run_tree b, find_entry op bt with
      | Some x, Some y, Some (opc, _) => match chip_binop opc with Some g => Some (g x y) | None => None end
      | _, _, _ => None
      end
  | CUn op a =>
      match run_tree a, find_entry op ut with
      | Some x, Some (opc, _) => match chip_unop opc with Some g => Some (g x) | None => None end
      | _, _ => None
      end
  end.

(* a node agrees when, on the operand values that reach it, the lambda's result is the instruction's *)
Definition bin_agrees (op : string) (x y : float) : Prop :=
  forall opc lam r, find_entry op bt = Some (opc, lam) -> fold2 lam x y = Some r ->
    exists g, chip_binop opc = Some g /\ r = g x y.
Definition un_agrees (op : string) (x : float) : Prop :=
  forall opc lam r, find_entry op ut = Some (opc, lam) -> fold1 lam x = Some r ->
    exists g, chip_unop opc = Some g /\ r = g x.

Fixpoint nodes_agree (t : ctree) : Prop :=
  match t with
  | CLeaf _ => True
  | CBin op a b => nodes_agree a /\ nodes_agree b /\
      (forall x y, fold_tree a = Some x -> fold_tree b = Some y -> bin_agrees op x y)
  | CUn op a => nodes_agree a /\ (forall x, fold_tree a = Some x -> un_agrees op x)
  end.

Theorem fold_tree_is_run_tree : forall t r, nodes_agree t -> fold_tree t = Some r -> run_tree t = Some r.
Proof.
  induction t as [f|op a IHa b IHb|op a IHa]; intros r Hn Hf.
  - exact Hf.
  - cbn [nodes_agree] in Hn. destruct Hn as (Ha & Hb & Hab). cbn [fold_tree] in Hf. cbn [run_tree].
    destruct (fold_tree a) as [x|]; [|discriminate].
    destruct (fold_tree b) as [y|]; [|discriminate].
    destruct (find_entry op bt) as [[opc lam]|] eqn:Ef; [|discriminate].
    rewrite (IHa x Ha eq_refl), (IHb y Hb eq_refl).
    destruct (Hab x y eq_refl eq_refl opc lam r Ef Hf) as (g & Hg & ->). rewrite Hg. reflexivity.
  - cbn [nodes_agree] in Hn. destruct Hn as (Ha & Hu). cbn [fold_tree] in Hf. cbn [run_tree].
    destruct (fold_tree a) as [x|]; [|discriminate].
    destruct (find_entry op ut) as [[opc lam]|] eqn:Ef; [|discriminate].
    rewrite (IHa x Ha eq_refl).
    destruct (Hu x eq_refl opc lam r Ef Hf) as (g & Hg & ->). rewrite Hg. reflexivity.
Qed.
End T.

(* the tables of utils.py: operators whose agreement holds for ALL operands *)
Definition total_op (op : string) : bool :=
  existsb (String.eqb op) ["+"; "-"; "*"; "/"; "**"; "=="; "!="; "<"; "<="; ">"; ">="].

Lemma total_ops_agree : forall op x y, total_op op = true -> bin_agrees model_binops op x y.
Proof.
  intros op x y H opc lam r Hf Hr. apply existsb_exists in H as (k & Hk & E). apply String.eqb_eq in E. subst k.
  cbn [In] in Hk. destruct Hk as [<-|[<-|[<-|[<-|[<-|[<-|[<-|[<-|[<-|[<-|[<-|[]]]]]]]]]]]];
    injection Hf as <- <-; eexists; (split; [reflexivity|]).
  (* eleven goals, in the order of the list in total_op: five arithmetic rows, then the six comparisons *)
  6-11: exact (fold_cmp _ x y r Hr).
  1-5: exact (fold_arith _ _ x y r Hr eq_refl).
Qed.

Fixpoint total_tree (t : ctree) : bool :=
  match t with
  | CLeaf _ => true
  | CBin op a b => total_op op && total_tree a && total_tree b
  | CUn _ _ => false
  end.

Lemma total_tree_agrees : forall t, total_tree t = true -> nodes_agree model_binops model_unops t.
Proof.
  induction t as [f|op a IHa b IHb|op a IHa]; intros H; cbn in H |- *; try exact I; try discriminate.
  apply andb_prop in H as [H Hb]. apply andb_prop in H as [Ho Ha].
  split; [exact (IHa Ha)|]. split; [exact (IHb Hb)|].
  intros x y _ _. exact (total_ops_agree op x y Ho).
Qed.

(* Every expression tree over + - * / ** and the six comparisons, of any shape and depth, on any
   constants: whenever the compiler folds it to r, executing the instructions on the same constants
   computes r. *)
Theorem arithmetic_trees_fold_to_run_time_value : forall t r,
  total_tree t = true -> fold_tree model_binops model_unops t = Some r -> run_tree model_binops model_unops t = Some r.
Proof. intros t r H. apply fold_tree_is_run_tree. exact (total_tree_agrees t H). Qed.

Example tree_example :
  let t := CBin "+" (CBin "*" (CLeaf 3) (CLeaf 0.5)) (CBin "<" (CLeaf 2) (CBin "/" (CLeaf 1) (CLeaf 4))) in
  total_tree t = true /\ fold_tree model_binops model_unops t = Some 1.5%float.
Proof. split; vm_compute; reflexivity. Qed.

(* Per-operator agreement between compile-time folding (Python semantics of the table's
   lambda) and the instruction the same table entry names, for ALL operands in the domain. *)
From Coq Require Import ZArith PrimFloat Lia.
From PV Require Import IC10.Values IC10.Machine IC10.FloatAlg Model.Fold.
Local Open Scope Z_scope.

Lemma wrap64_small z : - 2 ^ 63 <= z < 2 ^ 63 -> wrap64 z = z.
Proof.
  intros H. unfold wrap64. destruct (Z.lt_ge_cases z 0).
  - (* a negative z is z + 2^64 modulo 2^64 *)
    rewrite <- (Z_mod_plus_full z 1), Z.mod_small by lia. destruct (Z.ltb_spec (z + 1 * 2 ^ 64) (2 ^ 63)); lia.
  - rewrite Z.mod_small by lia. destruct (Z.ltb_spec z (2 ^ 63)); lia.
Qed.

(* A number is in [0, 2^n) exactly when it has no bit at or above n (both say  a mod 2^n = a);
   the bounds on the results of and, or, xor and the shifts below are read off their bits. *)
Lemma below_pow2_bits n a : 0 <= n -> 0 <= a < 2 ^ n <-> (forall i, n <= i -> Z.testbit a i = false).
Proof.
  intros Hn. split.
  - intros Ha i Hi. rewrite <- (Z.mod_small a (2 ^ n) Ha). apply Z.mod_pow2_bits_high. lia.
  - intros H. replace a with (a mod 2 ^ n); [apply Z.mod_pos_bound; lia|].
    apply Z.bits_inj'. intros i _. rewrite Z.testbit_mod_pow2 by exact Hn.
    destruct (Z.ltb_spec i n) as [|Hi]; [reflexivity|]. symmetry. exact (H i Hi).
Qed.

Lemma bitwise_below n g f : 0 <= n -> f false false = false ->
  (forall a b i, Z.testbit (g a b) i = f (Z.testbit a i) (Z.testbit b i)) ->
  forall a b, 0 <= a < 2 ^ n -> 0 <= b < 2 ^ n -> 0 <= g a b < 2 ^ n.
Proof.
  intros Hn Hf Hg a b Ha Hb. rewrite below_pow2_bits in * by exact Hn.
  intros i Hi. rewrite Hg, (Ha i Hi), (Hb i Hi). exact Hf.
Qed.
Lemma shiftr_below n a c : 0 <= n -> 0 <= c -> 0 <= a < 2 ^ n -> 0 <= Z.shiftr a c < 2 ^ n.
Proof.
  intros Hn Hc. rewrite !below_pow2_bits by exact Hn. intros Ha i Hi.
  rewrite Z.shiftr_spec by lia. apply Ha. lia.
Qed.
Lemma shiftl_below n a c : 0 <= n -> 0 <= c -> 0 <= a < 2 ^ n -> 0 <= Z.shiftl a c < 2 ^ (n + c).
Proof.
  intros Hn Hc. rewrite !below_pow2_bits by lia. intros Ha i Hi.
  rewrite Z.shiftl_spec by lia. apply Ha. lia.
Qed.

(* below 2^53 every integer is a double, so an integer constant of the source reaches the folder exactly *)
Definition int_operand (x : float) (a : Z) : Prop := trunc_Z x = Some a /\ 0 <= a < 2 ^ 53.

Lemma long_of_int x a : int_operand x a -> long_of x = a.
Proof. intros [H R]. unfold long_of. rewrite H. apply wrap64_small. lia. Qed.

(* + - * / ** : the same IEEE operation on both sides.  Python refuses a zero divisor (the expression is
   then not folded); the power is one uninterpreted function on both sides (named assumption: Python's
   float power and the chip's pow are the same function). *)
Definition arith_op (o : pbin) : option binop :=
  match o with
  | PAdd => Some Badd | PSub => Some Bsub | PMul => Some Bmul | PDiv => Some Bdiv | PPow => Some Bpow
  | _ => None
  end.
Lemma fold_arith o b x y r : fold2 (PBin o (PE PX) (PE PY)) x y = Some r -> arith_op o = Some b -> r = fbin b x y.
Proof.
  intros H. destruct o; intros [= <-]; try (injection H as <-; reflexivity).
  (* / *) unfold fold2 in H. cbn in H. destruct (PrimFloat.eqb y PrimFloat.zero); [discriminate|]. injection H as <-. reflexivity.
Qed.

(* comparisons: 1 / 0 exactly as the set-instruction.  float(v) of a float is v, so the table's other
   shape  PCmp c PX PY  (== and !=) computes to the same and is covered by this statement as it stands. *)
Lemma fold_cmp c x y r : fold2 (PCmp c (PE PX) (PE PY)) x y = Some r ->
  r = of_bool FloatAlg (fcmp c x y).
Proof. intros [= <-]. destruct (fcmp c x y); reflexivity. Qed.

Section Mod.
(* modulo: for a modulus that is not negative Python's float % and IC10's mod coincide.
   `zero_not_neg` is the IEEE fact that a value equal to zero is not below zero; Props/C03.v supplies it
   from IC10/FloatFacts.v, so that this file stays clear of the float axioms. *)
Hypothesis zero_not_neg : forall f, PrimFloat.eqb f PrimFloat.zero = true -> PrimFloat.ltb f PrimFloat.zero = false.

Lemma fold_mod x y r : PrimFloat.ltb y PrimFloat.zero = false ->
  fold2 (PBin PMod (PE PX) (PE PY)) x y = Some r -> r = fbin Bmod x y.
Proof using zero_not_neg.
  intros Hy. unfold fold2. cbn. unfold py_fmod, ic10_mod.
  destruct (PrimFloat.eqb y PrimFloat.zero); [discriminate|].
  destruct (PrimFloat.eqb (fmod x y) PrimFloat.zero) eqn:Ez.
  - cbn. intros [= <-]. rewrite (zero_not_neg _ Ez). reflexivity.
  - rewrite Hy. destruct (PrimFloat.ltb (fmod x y) PrimFloat.zero); cbn; intros [= <-]; reflexivity.
Qed.

End Mod.

(* The integer operators (and or ^ & >> <<) on operands that are non-negative integers below 2^53:
   int() and the chip's (long) view of such an operand coincide, so it is enough that Python's result
   is g on the two integers and fits a long. *)
Lemma fold_int o g x y a c r : int_operand x a -> int_operand y c ->
  py_binop o (VI a) (VI c) = Some (VI (g a c)) -> - 2 ^ 63 <= g a c < 2 ^ 63 ->
  fold2 (PBin o (PInt (PE PX)) (PInt (PE PY))) x y = Some r -> r = bitop g x y.
Proof.
  intros Hx Hy Ho Rg. unfold bitop. rewrite (long_of_int x a Hx), (long_of_int y c Hy), (wrap64_small _ Rg).
  destruct Hx as [Tx _], Hy as [Ty _]. unfold fold2. cbn. rewrite Tx, Ty. cbn. rewrite Ho.
  intros [= <-]. reflexivity.
Qed.

(* and or ^ : g is computed bit by bit by f *)
Lemma fold_bit o g f x y a c r :
  (forall a c, py_binop o (VI a) (VI c) = Some (VI (g a c))) ->
  f false false = false -> (forall a b i, Z.testbit (g a b) i = f (Z.testbit a i) (Z.testbit b i)) ->
  int_operand x a -> int_operand y c ->
  fold2 (PBin o (PInt (PE PX)) (PInt (PE PY))) x y = Some r -> r = bitop g x y.
Proof.
  intros Ho Hf Hg Hx Hy. apply (fold_int o g x y a c r Hx Hy (Ho a c)).
  pose proof (bitwise_below 53 g f ltac:(lia) Hf Hg a c (proj2 Hx) (proj2 Hy)). lia.
Qed.

(* shifts: the amount 0..63, for << 0..9 (2^53 * 2^9 still fits) *)
Lemma fold_shr x y a c r : int_operand x a -> trunc_Z y = Some c -> 0 <= c < 64 ->
  fold2 (PBin PShr (PInt (PE PX)) (PInt (PE PY))) x y = Some r -> r = fbin Bsrl x y.
Proof.
  intros Hx Ty Rc. pose proof (proj2 Hx) as Ra. assert (int_operand y c) as Hy by (split; [exact Ty|lia]).
  (* srl shifts a mod 2^64, which is a *)
  apply (fold_int PShr _ x y a c r Hx Hy); rewrite Z.mod_small by lia.
  - cbn [py_binop]. destruct (Z.ltb_spec c 0); [lia|reflexivity].
  - pose proof (shiftr_below 53 a c). lia.
Qed.

Lemma fold_shl x y a c r : int_operand x a -> trunc_Z y = Some c -> 0 <= c <= 9 ->
  fold2 (PBin PShl (PInt (PE PX)) (PInt (PE PY))) x y = Some r -> r = fbin Bsll x y.
Proof.
  intros Hx Ty Rc. pose proof (proj2 Hx) as Ra. assert (int_operand y c) as Hy by (split; [exact Ty|lia]).
  apply (fold_int PShl _ x y a c r Hx Hy).
  - cbn [py_binop]. destruct (Z.ltb_spec c 0); [lia|reflexivity].
  - pose proof (shiftl_below 53 a c). pose proof (Z.pow_le_mono_r 2 (53 + c) 62). lia.
Qed.

(* not x  folds to  int(not float(x))  = 1 iff x == 0, as seqz *)
Lemma fold_not x r : fold1 (PInt (PNot (PE PX))) x = Some r ->
  r = of_bool FloatAlg (fcmp Ceq x (of_Z 0)).
Proof.
  intros [= <-]. cbn.
  destruct (PrimFloat.eqb x PrimFloat.zero); reflexivity.
Qed.

(* ~x is never folded (Python refuses ~ on a float), so no literal is ever produced for it *)
Lemma fold_inv_never x : fold1 (PInv (PE PX)) x = None.
Proof. reflexivity. Qed.

(* unary minus folds to the IEEE negation; the instruction computes 0 - x, which differs from it only in
   the sign of a zero result (FloatFacts.neg_is_zero_minus, applied in Props/C03.v) *)
Lemma fold_neg x r : fold1 (PNeg (PE PX)) x = Some r -> r = PrimFloat.opp x.
Proof. intros [= <-]. reflexivity. Qed.

From Coq Require Import List Arith Bool Lia.
From PV Require Import Model.RaInsert.
Import ListNotations.

(* behind a prefix, positions are counted from its end *)
Lemma insert_at_add {X} (a b : list X) n (x : X) : insert_at (length a + n) x (a ++ b) = a ++ insert_at n x b.
Proof. induction a as [|y a IH]; cbn; [reflexivity|]. rewrite IH. reflexivity. Qed.

Lemma insert_at_app {X} (a b : list X) (x : X) : insert_at (length a) x (a ++ b) = a ++ x :: b.
Proof. rewrite <- (Nat.add_0_r (length a)). exact (insert_at_add a b 0 x). Qed.

Lemma last_endlab_app body i acc :
  (forall x, In x body -> x <> EndLab) ->
  last_endlab (body ++ [EndLab; JRa]) i acc = Some (i + length body).
Proof.
  revert i acc. induction body as [|b body IH]; intros i acc H; cbn.
  - f_equal. lia.
  - rewrite <- Nat.add_succ_comm, <- (IH (S i) acc) by (intros x Hx; apply H; right; exact Hx).
    destruct b; try reflexivity. destruct (H EndLab (or_introl eq_refl) eq_refl).
Qed.

(* Fixed-slot convention, every function of the emitted shape
       <label> body... <name>end: j ra
   (early returns inside the body are jumps to <name>end): if the body makes a call, the result
   is   <label> push ra body... <name>end: pop ra j ra  — one push on entry, one pop on the single
   exit path, placed after the end label so that early returns pass through it too. *)
Theorem add_ra_fixed_shape body :
  (forall x, In x body -> x <> EndLab) -> have_calls body = true ->
  add_ra_fixed (Lab :: body ++ [EndLab; JRa]) = Some (Lab :: PushRa :: body ++ [EndLab; PopRa; JRa]).
Proof.
  intros Hne Hc. unfold add_ra_fixed, have_calls, have_returns in *. cbn [existsb orb].
  rewrite !existsb_app, Hc. cbn [existsb orb]. rewrite orb_true_r. cbn [andb last_endlab].
  rewrite last_endlab_app by exact Hne. f_equal.
  replace (1 + length body + 2) with (length (Lab :: PushRa :: body) + 1) by (cbn; lia).
  exact (insert_at_add (Lab :: PushRa :: body) [EndLab; JRa] 1 PopRa).
Qed.

(* a function without calls, or without a return, is left alone *)
Theorem add_ra_fixed_untouched c : have_calls c && have_returns c = false -> add_ra_fixed c = Some c.
Proof. intros H. unfold add_ra_fixed. rewrite H. reflexivity. Qed.

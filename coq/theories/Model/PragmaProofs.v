From Coq Require Import List NArith Bool.
From PV Require Import Base.PyStr Model.Pragma.
Import ListNotations.
Local Open Scope N_scope.

Lemma pystr_eqb_spec a b : reflect (a = b) (pystr_eqb a b).
Proof.
  revert b; induction a as [|x a IH]; intros [|y b]; cbn; try (constructor; congruence).
  destruct (N.eqb_spec x y) as [->|Hxy]; cbn; [|constructor; congruence].
  destruct (IH b); constructor; congruence.
Qed.

Lemma starts_with_app p a b : starts_with p a = true -> starts_with p (a ++ b) = true.
Proof.
  revert a; induction p as [|x p IH]; intros a H; [reflexivity|].
  destruct a as [|y a]; [discriminate|]. cbn in *. apply andb_prop in H as [-> H]. exact (IH a H).
Qed.

(* an occurrence in s is an occurrence in whatever s is part of *)
Lemma contains_mid p a s b : contains p s = true -> contains p (a ++ s ++ b) = true.
Proof.
  intros H. induction a as [|x a IHa]; cbn [app contains]; [|rewrite IHa; apply orb_true_r].
  (* p starts at the head of s, or occurs further in; for the empty s and for y :: s *)
  induction s as [|y s IH]; cbn [app contains] in *; apply orb_prop in H as [H|H].
  - destruct p; [destruct b; reflexivity|discriminate].
  - discriminate.
  - rewrite (starts_with_app p (y :: s) b H : starts_with p (y :: s ++ b) = true). reflexivity.
  - rewrite (IH H). apply orb_true_r.
Qed.

Lemma lstrip_suffix a : exists pre, a = pre ++ lstrip a.
Proof.
  induction a as [|z a (pre & Hp)]; [exists []; reflexivity|].
  cbn. destruct (is_space z); [exists (z :: pre); cbn; congruence|exists []; reflexivity].
Qed.

Lemma starts_with_rstrip p m : starts_with p (rstrip m) = true -> starts_with p m = true.
Proof.
  intros H. destruct (lstrip_suffix (rev m)) as (pre & Hp).
  (* m = rstrip m ++ rev pre *)
  rewrite <- (rev_involutive m), Hp, rev_app_distr. apply starts_with_app, H.
Qed.

(* every line of splitlines is a contiguous piece of the text; after a "\r" no line is open *)
Lemma splitlines_aux_piece : forall l cur f line, (f = true -> cur = []) ->
  In line (splitlines_aux l cur f) -> exists a b, rev cur ++ l = a ++ line ++ b.
Proof.
  induction l as [|c r IH]; intros cur f line Hf Hin; cbn [splitlines_aux] in Hin.
  - destruct cur; [destruct Hin|]. destruct Hin as [<-|[]]. exists [], []. reflexivity.
  - destruct (f && (c =? 10))%bool eqn:Ef; [|destruct (is_lb c)].
    + apply andb_prop in Ef as [-> _]. rewrite (Hf eq_refl) in *.
      destruct (IH [] false line (fun _ => eq_refl) Hin) as (a & b & H).
      exists (c :: a), b. cbn in *. rewrite H. reflexivity.
    + destruct Hin as [<-|Hin]; [exists [], (c :: r); reflexivity|].
      destruct (IH [] _ line (fun _ => eq_refl) Hin) as (a & b & H).
      exists (rev cur ++ c :: a), b. cbn in H. rewrite H, <- app_assoc. reflexivity.
    + destruct (IH (c :: cur) false line ltac:(discriminate) Hin) as (a & b & H).
      exists a, b. rewrite <- H. cbn [rev]. rewrite <- app_assoc. reflexivity.
Qed.

Lemma replace_char_idem a b s : replace_char a b (replace_char a b s) = replace_char a b s.
Proof.
  unfold replace_char. rewrite map_map. apply map_ext. intros c.
  destruct (c =? a) eqn:E; [destruct (b =? a); reflexivity|rewrite E; reflexivity].
Qed.

Lemma rev_replace_char a b s : rev (replace_char a b s) = replace_char a b (rev s).
Proof. symmetry. apply map_rev. Qed.

(* replacing one non-blank character by another does not move the blanks *)
Lemma lstrip_replace_char a b s : is_space a = false -> is_space b = false ->
  lstrip (replace_char a b s) = replace_char a b (lstrip s).
Proof.
  intros Ha Hb. induction s as [|c s IH]; [reflexivity|]. cbn. destruct (N.eqb_spec c a) as [->|Hc].
  - rewrite Ha, Hb. cbn. rewrite N.eqb_refl. reflexivity.
  - destruct (is_space c); [exact IH|]. cbn. apply N.eqb_neq in Hc. rewrite Hc. reflexivity.
Qed.

Lemma strip_replace_char a b s : is_space a = false -> is_space b = false ->
  strip (replace_char a b s) = replace_char a b (strip s).
Proof.
  intros Ha Hb. unfold strip, rstrip.
  rewrite lstrip_replace_char, rev_replace_char, lstrip_replace_char, rev_replace_char by assumption.
  reflexivity.
Qed.

(* the scanner is "extract the directives, then apply them in order" *)
Lemma fold_apply_tag tags o : fold_left apply_tag tags o = apply_all (map norm_tag tags) o.
Proof. revert o; induction tags as [|t r IH]; intros o; cbn; [reflexivity|apply IH]. Qed.

Lemma fold_apply_line lines o :
  fold_left apply_line lines o = apply_all (map norm_tag (flat_map line_tags lines)) o.
Proof.
  revert o; induction lines as [|l r IH]; intros o; cbn; [reflexivity|].
  rewrite IH. unfold apply_line. rewrite fold_apply_tag. unfold apply_all.
  rewrite map_app, fold_left_app. reflexivity.
Qed.

Lemma line_tags_nil_without_key l : contains KEY l = false -> line_tags l = [].
Proof. intros H. unfold line_tags. rewrite H. reflexivity. Qed.

(* the gate `"pytrapic:" in main_module` is redundant: without the key no line has tags *)
Lemma no_key_no_tags src : contains KEY src = false -> flat_map line_tags (splitlines src) = [].
Proof.
  intros H. rewrite flat_map_concat_map. apply concat_nil_Forall, Forall_map, Forall_forall.
  intros line Hin. apply line_tags_nil_without_key. destruct (contains KEY line) eqn:E; [|reflexivity].
  destruct (splitlines_aux_piece src [] false line (fun _ => eq_refl) Hin) as (a & b & Hs).
  cbn in Hs. rewrite Hs, (contains_mid KEY a line b E) in H. discriminate.
Qed.

Theorem scan_eq_spec src o : scan src o = apply_all (directives src) o.
Proof.
  unfold scan, directives. destruct (contains KEY src) eqn:E.
  - apply fold_apply_line.
  - rewrite no_key_no_tags by exact E. reflexivity.
Qed.

Lemma set_opt_names o n v : map fst (set_opt o n v) = map fst o.
Proof.
  unfold set_opt. rewrite map_map. apply map_ext. intros [a b]; cbn.
  destruct (pystr_eqb a n); reflexivity.
Qed.

Lemma apply_directive_names o d : map fst (apply_directive o d) = map fst o.
Proof. unfold apply_directive. destruct (has_field o (fst d)); [apply set_opt_names|reflexivity]. Qed.

Theorem option_names_unchanged ds o : map fst (apply_all ds o) = map fst o.
Proof.
  revert o; induction ds as [|d r IH]; intros o; cbn; [reflexivity|].
  unfold apply_all in IH. rewrite IH. apply apply_directive_names.
Qed.

Lemma has_field_names o n : has_field o n = existsb (fun a => pystr_eqb a n) (map fst o).
Proof. unfold has_field. induction o as [|p o IH]; cbn; [reflexivity|rewrite IH; reflexivity]. Qed.

Lemma has_field_apply o d n : has_field (apply_directive o d) n = has_field o n.
Proof. rewrite !has_field_names, apply_directive_names. reflexivity. Qed.

Lemma lookup_set_same o n v : has_field o n = true -> lookup (set_opt o n v) n = Some v.
Proof.
  induction o as [|[a b] o IH]; cbn; [discriminate|].
  destruct (pystr_eqb a n) eqn:E; cbn; rewrite E; [reflexivity|exact IH].
Qed.
Lemma lookup_set_other o n m v : m <> n -> lookup (set_opt o m v) n = lookup o n.
Proof.
  intros Hne. induction o as [|[a b] o IH]; cbn; [reflexivity|].
  destruct (pystr_eqb_spec a m) as [->|_].
  - destruct (pystr_eqb_spec m n); [contradiction|exact IH].
  - destruct (pystr_eqb a n); [reflexivity|exact IH].
Qed.

Lemma lookup_apply_directive o d n : has_field o n = true ->
  lookup (apply_directive o d) n = if pystr_eqb (fst d) n then Some (snd d) else lookup o n.
Proof.
  intros Hn. unfold apply_directive. destruct (pystr_eqb_spec (fst d) n) as [->|Hne].
  - rewrite Hn. apply lookup_set_same, Hn.
  - destruct (has_field o (fst d)); [apply lookup_set_other, Hne|reflexivity].
Qed.

(* known option: the last directive naming it wins; otherwise the caller's value stays *)
Theorem last_wins ds : forall o n, has_field o n = true ->
  lookup (apply_all ds o) n =
  match last_directive ds n with Some v => Some v | None => lookup o n end.
Proof.
  induction ds as [|d r IH]; intros o n Hn; cbn; [reflexivity|].
  unfold apply_all in IH. rewrite IH by (rewrite has_field_apply; exact Hn).
  destruct (last_directive r n); [reflexivity|]. rewrite lookup_apply_directive by exact Hn.
  destruct (pystr_eqb (fst d) n); reflexivity.
Qed.

(* unknown names are ignored: a directive that names no field changes nothing *)
Theorem unknown_ignored o d : has_field o (fst d) = false -> apply_directive o d = o.
Proof. intros H. unfold apply_directive. rewrite H. reflexivity. Qed.

(* options not named by any directive keep the caller's value *)
Theorem unnamed_untouched ds o n : has_field o n = true -> last_directive ds n = None ->
  lookup (apply_all ds o) n = lookup o n.
Proof. intros Hn Hl. rewrite last_wins by exact Hn. rewrite Hl. reflexivity. Qed.

(* lines whose first non-blank character is not '#' carry no directive, whatever they contain *)
Theorem code_lines_inert line : starts_with [HASHCH] (lstrip line) = false -> line_tags line = [].
Proof.
  intros H. unfold line_tags. destruct (contains KEY line); [|reflexivity]. cbn [negb].
  destruct (starts_with [HASHCH] (strip line)) eqn:E; [|reflexivity].
  apply starts_with_rstrip in E. congruence.
Qed.

(* '-' and '_' are treated alike in option names *)
Theorem dash_underscore_alike tag : norm_tag (replace_char DASH UNDERSCORE tag) = norm_tag tag.
Proof.
  unfold norm_tag. rewrite strip_replace_char, replace_char_idem by reflexivity. reflexivity.
Qed.

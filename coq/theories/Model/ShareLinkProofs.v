(* Proofs about the share-link codec model.  Everything goes through the sextet stream of a
   byte list ([sextets]: four per three bytes, three or two for a tail): b64_encode is [pad] of
   its image under enc_char, url_encode its image under g o enc_char, the PADs being exactly
   what strip_ch removes and pad puts back.  Alphabet and length are read off that image; the
   round trip is Base64's own (b64_decode_encode) once the URL layer is undone
   (dec_chain_pad_url_encode). *)
From Coq Require Import List NArith ZArith Lia.
From PV Require Import Base.Base64 Model.ShareLink.
Import ListNotations.
Local Open Scope N_scope.

(* enc_chain and dec_chain as maps on characters (enc_chain_eq, dec_chain_eq) *)
Definition g (c : N) : N := let c1 := if c =? 43 then 45 else c in if c1 =? 47 then 95 else c1.
Definition h (c : N) : N := let c1 := if c =? 45 then 43 else c in if c1 =? 95 then 47 else c1.

Lemma h_pad : h PAD = PAD. Proof. reflexivity. Qed.
Lemma g_pad : g PAD = PAD. Proof. reflexivity. Qed.

Lemma enc_chain_eq l : apply_chain enc_chain l = strip_ch PAD (map g l).
Proof.
  unfold apply_chain, enc_chain; cbn [fold_left apply_step]. unfold repl.
  rewrite map_map. reflexivity.
Qed.

Lemma dec_chain_eq l : apply_chain dec_chain l = map h l.
Proof.
  unfold apply_chain, dec_chain; cbn [fold_left apply_step]. unfold repl.
  rewrite map_map. reflexivity.
Qed.

(* One evaluation for all that is needed of a single sextet: each side is a map over the 64. *)
Lemma sweep64 s : In s (map N.of_nat (seq 0 64)) ->
  (enc_char s =? PAD, dec_char (enc_char s), g (enc_char s) =? PAD, h (g (enc_char s)),
   urlsafe_char (g (enc_char s))) = (false, Some s, false, enc_char s, true).
Proof. revert s. apply map_ext_in_iff. vm_compute. reflexivity. Qed.

(* used as `apply (sextet_facts s H)` on a goal that is one of the five conjuncts (or the negation in the third) *)
Lemma sextet_facts s : s < 64 ->
  (enc_char s =? PAD) = false /\ dec_char (enc_char s) = Some s /\
  g (enc_char s) <> PAD /\ h (g (enc_char s)) = enc_char s /\
  urlsafe_char (g (enc_char s)) = true.
Proof.
  intros Hs. assert (In s (map N.of_nat (seq 0 64))) as H.
  { apply in_map_iff. exists (N.to_nat s). split; [apply N2Nat.id|]. apply in_seq. lia. }
  apply sweep64 in H. injection H as P D G R U. apply N.eqb_neq in G. auto.
Qed.

Lemma enc_not_pad s : s < 64 -> (enc_char s =? PAD) = false.
Proof. intros Hs. apply (sextet_facts s Hs). Qed.

Lemma dec_enc s : s < 64 -> dec_char (enc_char s) = Some s.
Proof. intros Hs. apply (sextet_facts s Hs). Qed.

(* lia with the euclidean equations of every / and mod of the goal and of the context: dear
   when these are many, so called only where the context is three bounds. *)
Local Ltac div_lia := zify; Z.to_euclidean_division_equations; lia.

Lemma div_mod_join x y j : y < j -> (x * j + y) / j = x /\ (x * j + y) mod j = y.
Proof.
  intros H. assert (j <> 0) as Hj by lia. split.
  - rewrite N.div_add_l, N.div_small by assumption. apply N.add_0_r.
  - rewrite N.add_comm, N.mod_add by assumption. apply N.mod_small, H.
Qed.

Lemma regroup a b c : a < 256 -> b < 256 -> c < 256 ->
  let s1 := a / 4 in let s2 := (a mod 4) * 16 + b / 16 in
  let s3 := (b mod 16) * 4 + c / 64 in let s4 := c mod 64 in
  s1 < 64 /\ s2 < 64 /\ s3 < 64 /\ s4 < 64 /\
  s1 * 4 + s2 / 16 = a /\ (s2 mod 16) * 16 + s3 / 4 = b /\ (s3 mod 4) * 64 + s4 = c.
Proof.
  intros Ha Hb Hc; cbv zeta.
  destruct (div_mod_join (a mod 4) (b / 16) 16) as [-> ->]; [div_lia|].
  destruct (div_mod_join (b mod 16) (c / 64) 4) as [-> ->]; [div_lia|].
  repeat split; div_lia.
Qed.

(* A tail is a full group whose missing bytes are 0. *)
Lemma regroup2 a b : a < 256 -> b < 256 ->
  let s1 := a / 4 in let s2 := (a mod 4) * 16 + b / 16 in let s3 := (b mod 16) * 4 in
  s1 < 64 /\ s2 < 64 /\ s3 < 64 /\ s1 * 4 + s2 / 16 = a /\ (s2 mod 16) * 16 + s3 / 4 = b.
Proof.
  intros Ha Hb. pose proof (regroup a b 0 Ha Hb eq_refl) as H. cbv zeta in *.
  change (0 / 64) with 0 in H. rewrite N.add_0_r in H. tauto.
Qed.

Lemma regroup1 a : a < 256 ->
  let s1 := a / 4 in let s2 := (a mod 4) * 16 in
  s1 < 64 /\ s2 < 64 /\ s1 * 4 + s2 / 16 = a.
Proof.
  intros Ha. pose proof (regroup2 a 0 Ha eq_refl) as H. cbv zeta in *.
  change (0 / 16) with 0 in H. rewrite N.add_0_r in H. tauto.
Qed.

Lemma mod4_add4 n : N.of_nat (S (S (S (S n)))) mod 4 = N.of_nat n mod 4.
Proof.
  change (N.of_nat (4 + n) mod 4 = N.of_nat n mod 4).
  rewrite Nat2N.inj_add, N.add_comm. apply (N.mod_add _ 1 4). discriminate.
Qed.

Lemma list_ind3 {A} (P : list A -> Prop) :
  P [] -> (forall a, P [a]) -> (forall a b, P [a; b]) ->
  (forall a b c r, P r -> P (a :: b :: c :: r)) -> forall l, P l.
Proof.
  intros H0 H1 H2 H3.
  assert (forall l, P l /\ (forall a, P (a :: l)) /\ (forall a b, P (a :: b :: l))) as H.
  { induction l as [|x l (IH0 & IH1 & IH2)]; repeat split; auto. }
  intros l; apply H.
Qed.

Fixpoint sextets (l : list N) : list N :=
  match l with
  | a :: b :: c :: r =>
      a / 4 :: (a mod 4) * 16 + b / 16 :: (b mod 16) * 4 + c / 64 :: c mod 64 :: sextets r
  | [a; b] => [a / 4; (a mod 4) * 16 + b / 16; (b mod 16) * 4]
  | [a] => [a / 4; (a mod 4) * 16]
  | [] => []
  end.

Lemma sextets_lt bs : Forall (fun b => b < 256) bs -> forall s, In s (sextets bs) -> s < 64.
Proof.
  intros HF. apply Forall_forall. revert HF.
  induction bs as [|a|a b|a b c r IH] using list_ind3; rewrite ?Forall_cons_iff; cbn [sextets].
  - constructor.
  - intros (Ha & _). destruct (regroup1 a Ha) as (H1 & H2 & _). auto.
  - intros (Ha & Hb & _). destruct (regroup2 a b Ha Hb) as (H1 & H2 & H3 & _). auto.
  - intros (Ha & Hb & Hc & Hr%IH).
    destruct (regroup a b c Ha Hb Hc) as (H1 & H2 & H3 & H4 & _). auto.
Qed.

Lemma sextets_length bs : N.of_nat (length (sextets bs)) mod 4 <> 1.
Proof.
  induction bs as [|a|a b|a b c r IH] using list_ind3; try discriminate.
  cbn [sextets length]. rewrite mod4_add4. exact IH.
Qed.

Lemma pad_app4 x y : length x = 4%nat -> pad (x ++ y) = x ++ pad y.
Proof.
  intros Hx. unfold pad. rewrite app_length, Hx. cbn [Nat.add]. rewrite mod4_add4.
  destruct (_ =? 0); [reflexivity|]. rewrite app_assoc. reflexivity.
Qed.

Lemma map_pad f l : f PAD = PAD -> map f (pad l) = pad (map f l).
Proof.
  intros Hf. unfold pad. rewrite map_length. destruct (_ =? 0); [reflexivity|].
  rewrite map_app. f_equal. induction (N.to_nat _); cbn; congruence.
Qed.

Lemma strip_app ch l1 l2 : strip_ch ch (l1 ++ l2) = strip_ch ch l1 ++ strip_ch ch l2.
Proof. apply filter_app. Qed.

Lemma strip_keep c : c <> PAD -> strip_ch PAD [c] = [c].
Proof. intros Hc. apply N.eqb_neq in Hc. unfold strip_ch; cbn. rewrite Hc. reflexivity. Qed.

Lemma strip_none l : ~ In PAD l -> strip_ch PAD l = l.
Proof.
  induction l as [|c l IH]; intros H; [reflexivity|]. change (c :: l) with ([c] ++ l).
  rewrite strip_app, strip_keep, IH; cbn in *; auto.
Qed.

Lemma strip_pad l : ~ In PAD l -> strip_ch PAD (pad l) = l.
Proof.
  intros H. unfold pad. destruct (_ =? 0); [apply strip_none, H|].
  rewrite strip_app, strip_none by exact H.
  (* what is left: strip_ch PAD (repeat PAD k) = [], each PAD stripped by computation *)
  induction (N.to_nat _) as [|k IH]; [apply app_nil_r | exact IH].
Qed.

Lemma b64_encode_sextets bs : b64_encode bs = pad (map enc_char (sextets bs)).
Proof.
  induction bs as [|a|a b|a b c r IH] using list_ind3; try reflexivity.
  cbn [b64_encode sextets map]. rewrite IH. symmetry. apply (pad_app4 (quad a b c)). reflexivity.
Qed.

Theorem url_encode_sextets bs : Forall (fun b => b < 256) bs ->
  url_encode bs = map (fun s => g (enc_char s)) (sextets bs).
Proof.
  intros HF. unfold url_encode.
  rewrite enc_chain_eq, b64_encode_sextets, (map_pad g), map_map by exact g_pad.
  apply strip_pad. intros H. apply in_map_iff in H as (s & E & Hs).
  apply (sextet_facts s (sextets_lt bs HF s Hs)), E.
Qed.

Theorem url_alphabet bs :
  Forall (fun b => b < 256) bs -> forallb urlsafe_char (url_encode bs) = true.
Proof.
  intros HF. rewrite url_encode_sextets by exact HF. apply forallb_forall.
  intros c Hc. apply in_map_iff in Hc as (s & <- & Hs).
  apply sextet_facts, (sextets_lt bs HF s Hs).
Qed.

Theorem url_length_not_1_mod_4 bs : Forall (fun b => b < 256) bs ->
  N.of_nat (length (url_encode bs)) mod 4 <> 1.
Proof.
  intros HF. rewrite url_encode_sextets, map_length by exact HF. apply sextets_length.
Qed.

Theorem b64_decode_encode bs :
  Forall (fun b => b < 256) bs -> b64_decode (b64_encode bs) = Some bs.
Proof.
  induction bs as [|a|a b|a b c r IH] using list_ind3; rewrite ?Forall_cons_iff.
  - reflexivity.
  - intros (Ha & _). destruct (regroup1 a Ha) as (H1 & H2 & E1).
    cbn [b64_encode b64_decode]. rewrite !dec_enc by assumption. cbn. rewrite E1. reflexivity.
  - intros (Ha & Hb & _). destruct (regroup2 a b Ha Hb) as (H1 & H2 & H3 & E1 & E2).
    cbn [b64_encode b64_decode]. rewrite !dec_enc, enc_not_pad by assumption. cbn.
    rewrite E1, E2. reflexivity.
  - intros (Ha & Hb & Hc & Hr).
    destruct (regroup a b c Ha Hb Hc) as (H1 & H2 & H3 & H4 & E1 & E2 & E3).
    cbn [b64_encode quad app b64_decode]. rewrite !dec_enc, !enc_not_pad, IH by assumption.
    rewrite E1, E2, E3. reflexivity.
Qed.

Theorem dec_chain_pad_url_encode bs : Forall (fun b => b < 256) bs ->
  apply_chain dec_chain (pad (url_encode bs)) = b64_encode bs.
Proof.
  intros HF. rewrite dec_chain_eq, url_encode_sextets, b64_encode_sextets by exact HF.
  rewrite (map_pad h), map_map by exact h_pad.
  f_equal. apply map_ext_in. intros s Hs. apply sextet_facts, (sextets_lt bs HF s Hs).
Qed.

Theorem url_roundtrip bs : Forall (fun b => b < 256) bs -> url_decode (url_encode bs) = Some bs.
Proof.
  intros HF. unfold url_decode. rewrite dec_chain_pad_url_encode by exact HF.
  apply b64_decode_encode, HF.
Qed.

(* The whole pipeline, with zlib / JSON / UTF-8 as oracles. *)
Section Pipeline.
  Variable J : Type.                                 (* JSON-serialisable values *)
  Variable ser : J -> list N.                        (* json.dumps(d).encode() *)
  Variable deser : list N -> option J.               (* json.loads(bytes.decode()) *)
  Variable compress decompress_ : list N -> list N.  (* zlib.compress / zlib.decompress *)
  Hypothesis deser_ser : forall d, deser (ser d) = Some d.
  Hypothesis zlib_roundtrip : forall bs, decompress_ (compress bs) = bs.
  Hypothesis compress_bytes : forall bs, Forall (fun b => b < 256) (compress bs).

  Definition encode_data (d : J) : list N := url_encode (compress (ser d)).
  Definition decode_data (s : list N) : option J :=
    match url_decode s with Some bs => deser (decompress_ bs) | None => None end.

  Theorem share_roundtrip d : decode_data (encode_data d) = Some d.
  Proof using deser_ser zlib_roundtrip compress_bytes.
    unfold decode_data, encode_data. rewrite url_roundtrip by apply compress_bytes.
    rewrite zlib_roundtrip. apply deser_ser.
  Qed.

  Theorem share_urlsafe d : forallb urlsafe_char (encode_data d) = true.
  Proof using compress_bytes. unfold encode_data. apply url_alphabet, compress_bytes. Qed.
End Pipeline.

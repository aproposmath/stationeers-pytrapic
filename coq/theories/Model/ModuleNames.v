(* CompilerPassSetModuleNames (compile_pass.py): `from library import <file> [as <alias>]` statements
   are visited in order; each binds a name (the alias, or the file name) to the module read from the
   ORIGINAL table of library files; the table of modules is replaced by these bindings at the end.

   Specification: Python's own import semantics - after the statements, a name refers to the file of the
   LAST import that bound it, whatever other files or aliases are spelled alike. *)
From Coq Require Import List String.
Import ListNotations.
Local Open Scope string_scope.

Section M.
Variable Mod : Type.
Variable files : string -> option Mod.          (* the library files as submitted *)

Definition import := (string * option string)%type.     (* (file, alias) *)
Definition bound (i : import) : string := match snd i with Some a => a | None => fst i end.

(* the pass: a dictionary filled in visiting order (later entries overwrite earlier ones) *)
Fixpoint dict_set (d : list (string * Mod)) (k : string) (v : Mod) : list (string * Mod) :=
  match d with
  | [] => [(k, v)]
  | (k', v') :: r => if String.eqb k k' then (k, v) :: r else (k', v') :: dict_set r k v
  end.
Fixpoint dict_get (d : list (string * Mod)) (k : string) : option Mod :=
  match d with [] => None | (k', v) :: r => if String.eqb k k' then Some v else dict_get r k end.

Fixpoint rename (L : list import) (d : list (string * Mod)) : option (list (string * Mod)) :=
  match L with
  | [] => Some d
  | i :: r => match files (fst i) with
              | Some m => rename r (dict_set d (bound i) m)
              | None => None                      (* KeyError: no such library file *)
              end
  end.

(* Python: the binding of name k after executing the imports *)
Fixpoint py_binding (L : list import) (cur : option Mod) (k : string) : option Mod :=
  match L with
  | [] => cur
  | i :: r => py_binding r (if String.eqb k (bound i) then files (fst i) else cur) k
  end.

Lemma dict_get_set d k v k' : dict_get (dict_set d k v) k' = if String.eqb k' k then Some v else dict_get d k'.
Proof.
  induction d as [|[a b] r IH]; cbn; [reflexivity|].
  destruct (String.eqb_spec k a) as [<-|N]; cbn.
  - destruct (String.eqb k' k); reflexivity.
  - destruct (String.eqb_spec k' a) as [->|_]; [|exact IH].
    rewrite String.eqb_sym, (proj2 (String.eqb_neq k a) N). reflexivity.
Qed.

Theorem rename_is_python_binding : forall L d d', rename L d = Some d' ->
  forall k, dict_get d' k = py_binding L (dict_get d k) k.
Proof.
  induction L as [|i r IH]; intros d d' H k; cbn in H |- *.
  - injection H as <-. reflexivity.
  - destruct (files (fst i)) as [m|]; [|discriminate].
    rewrite (IH _ _ H k). rewrite dict_get_set.
    destruct (String.eqb k (bound i)); reflexivity.
Qed.
End M.

(* an alias spelled like another library file, imported before that file: both names resolve as in Python *)
Example alias_collision :
  let files := fun f => if String.eqb f "pump" then Some 1 else if String.eqb f "pump_v2" then Some 2 else None in
  match rename nat files [("pump_v2", Some "pump"); ("pump", Some "legacy")] [] with
  | Some d => dict_get nat d "pump" = Some 2 /\ dict_get nat d "legacy" = Some 1 /\ dict_get nat d "pump_v2" = None
  | None => False
  end.
Proof. cbn. repeat split; reflexivity. Qed.

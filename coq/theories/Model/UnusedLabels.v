(* generate_code.remove_unused_labels: label lines that no token refers to are dropped, nothing else.

   A line is given as its raw text and its tokens (Python's str.split(), computed by the harness).
   The executable model `rul` is compared with the real function on emitted and adversarial texts in
   every run of C05; the theorems hold for every program. *)
From Coq Require Import List String Ascii Bool.
Import ListNotations.
Local Open Scope string_scope.

Record tline := { raw : string; toks : list string }.

Fixpoint ends_colon (s : string) : bool :=
  match s with
  | EmptyString => false
  | String c EmptyString => Ascii.eqb c ":"%char
  | String _ r => ends_colon r
  end.
Fixpoint drop_last (s : string) : string :=
  match s with
  | EmptyString => EmptyString
  | String _ EmptyString => EmptyString
  | String c r => String c (drop_last r)
  end.

(* `len(tokens) == 1 and tokens[0].endswith(":")`  ->  labels.add(tokens[0][:-1]) *)
Definition defines (l : tline) : option string :=
  match toks l with
  | [t] => if ends_colon t then Some (drop_last t) else None
  | _ => None
  end.
Definition labels (p : list tline) : list string :=
  flat_map (fun l => match defines l with Some x => [x] | None => [] end) p.
Definition mem (x : string) (xs : list string) : bool := existsb (String.eqb x) xs.
(* `label in tokens` for some line *)
Definition used (p : list tline) (x : string) : bool := existsb (fun l => mem x (toks l)) p.
(* `line.endswith(":") and line[:-1] in unused_labels` *)
Definition dropped (p : list tline) (l : tline) : bool :=
  ends_colon (raw l) && mem (drop_last (raw l)) (labels p) && negb (used p (drop_last (raw l))).
Definition rul (p : list tline) : list tline := filter (fun l => negb (dropped p l)) p.

Lemma mem_In x xs : mem x xs = true <-> In x xs.
Proof.
  unfold mem. rewrite existsb_exists. split.
  - intros [y [Hy E]]. apply String.eqb_eq in E. subst; exact Hy.
  - intros H. exists x. split; [exact H | apply String.eqb_refl].
Qed.

Lemma used_In p x : used p x = true <-> exists l, In l p /\ In x (toks l).
Proof.
  unfold used. rewrite existsb_exists.
  split; intros (l & Hl & H); exists l; (split; [exact Hl|apply mem_In, H]).
Qed.

Lemma In_rul p l : In l (rul p) <-> In l p /\ dropped p l = false.
Proof. unfold rul. rewrite filter_In, negb_true_iff. reflexivity. Qed.

(* the result is the program with some lines left out, in order *)
Inductive sublist {X} : list X -> list X -> Prop :=
| sub_nil : sublist [] []
| sub_keep x a b : sublist a b -> sublist (x :: a) (x :: b)
| sub_skip x a b : sublist a b -> sublist a (x :: b).
Lemma filter_sublist {X} (f : X -> bool) l : sublist (filter f l) l.
Proof. induction l as [|x l IH]; cbn; [constructor|]. destruct (f x); constructor; exact IH. Qed.
Theorem rul_sublist p : sublist (rul p) p.
Proof. apply filter_sublist. Qed.

(* only lines whose text is `<label>:` for a defined label that NO token of the program mentions go *)
Theorem rul_drops_only_unreferenced_labels p l :
  In l p -> ~ In l (rul p) ->
  ends_colon (raw l) = true /\ In (drop_last (raw l)) (labels p) /\
  forall l', In l' p -> ~ In (drop_last (raw l)) (toks l').
Proof.
  intros Hin Hout. destruct (dropped p l) eqn:D; [|destruct Hout; apply In_rul; split; assumption].
  unfold dropped in D. apply andb_prop in D as [D U]. apply andb_prop in D as [E M].
  repeat split; [exact E | apply mem_In, M |].
  intros l' Hl' Hm. apply negb_true_iff, not_true_iff_false in U. apply U, used_In.
  exists l'. split; assumption.
Qed.

(* every line that is not the bare text of a label stays: no instruction is ever removed *)
Theorem rul_keeps_instructions p l : In l p -> ends_colon (raw l) = false -> In l (rul p).
Proof.
  intros Hin He. apply In_rul. split; [exact Hin|]. unfold dropped. rewrite He. reflexivity.
Qed.

(* a label that some token refers to keeps every one of its definition lines *)
Theorem rul_keeps_referenced_labels p x l l' :
  In l p -> In l' p -> In x (toks l') -> drop_last (raw l) = x -> In l (rul p).
Proof.
  intros Hin Hin' Hx <-. apply In_rul. split; [exact Hin|].
  assert (used p (drop_last (raw l)) = true) as U by (apply used_In; exists l'; split; assumption).
  unfold dropped. rewrite U. apply andb_false_r.
Qed.

(* no dangling reference is created: when the raw text of a definition line is its token (no
   indentation, the shape the emitter produces), a label that is defined in p and mentioned by a line
   of the result is still defined in the result *)
Definition plain_defs (p : list tline) : Prop :=
  forall l x, In l p -> defines l = Some x -> raw l = x ++ ":".

Lemma drop_last_cons c a s : drop_last (String c (String a s)) = String c (drop_last (String a s)).
Proof. reflexivity. Qed.
Lemma drop_last_app_colon x : drop_last (x ++ ":") = x.
Proof.
  induction x as [|c [|a r] IH]; [reflexivity..|].
  cbn [append] in *. rewrite drop_last_cons, IH. reflexivity.
Qed.

Lemma In_labels p x : In x (labels p) <-> exists l, In l p /\ defines l = Some x.
Proof.
  unfold labels. rewrite in_flat_map. split.
  - intros [l [Hl H]]. exists l. split; [exact Hl|]. destruct (defines l); cbn in H; [|contradiction].
    destruct H as [->|[]]. reflexivity.
  - intros [l [Hl H]]. exists l. split; [exact Hl|]. rewrite H. left. reflexivity.
Qed.

Theorem rul_creates_no_dangling_reference p x l' :
  plain_defs p -> In x (labels p) -> In l' (rul p) -> In x (toks l') -> In x (labels (rul p)).
Proof.
  intros Hp Hx Hl' Ht. apply In_labels in Hx as [l [Hl Hd]].
  apply In_labels. exists l. split; [|exact Hd]. apply In_rul in Hl' as [Hl' _].
  apply (rul_keeps_referenced_labels p x l l' Hl Hl' Ht).
  rewrite (Hp l x Hl Hd). apply drop_last_app_colon.
Qed.

(* the premises are met by a real shape: the end label of a loop left by `break`, referenced from a line
   that carries a trailing comment *)
Example rul_example :
  let p := [ {| raw := "lbwhile1:"; toks := ["lbwhile1:"] |};
             {| raw := "  j lbwhile.end1   # break"; toks := ["j"; "lbwhile.end1"; "#"; "break"] |};
             {| raw := "  j lbwhile1"; toks := ["j"; "lbwhile1"] |};
             {| raw := "lbwhile.end1:"; toks := ["lbwhile.end1:"] |};
             {| raw := "lbunused2:"; toks := ["lbunused2:"] |} ] in
  map raw (rul p) = ["lbwhile1:"; "  j lbwhile.end1   # break"; "  j lbwhile1"; "lbwhile.end1:"].
Proof. reflexivity. Qed.

(* comparison used by the correspondence check *)
Fixpoint same_lines (a b : list string) : bool :=
  match a, b with
  | [], [] => true
  | x :: a', y :: b' => String.eqb x y && same_lines a' b'
  | _, _ => false
  end.
Definition agrees (c : list tline * list string) : bool := same_lines (map raw (rul (fst c))) (snd c).

(* Integer literals: Python's str(int) and format(int, "X") as Coq's standard decimal /
   hexadecimal printers, utils.format_int, and how the chip reads such a literal back. *)
From Coq Require Import ZArith String Ascii List Bool Decimal Hexadecimal DecimalString HexadecimalString
                        DecimalPos HexadecimalPos DecimalZ HexadecimalZ.
Import ListNotations.

Definition dec_str (z : Z) : string := DecimalString.NilZero.string_of_int (Z.to_int z).
Definition read_dec (s : string) : option Z :=
  option_map Z.of_int (DecimalString.NilZero.int_of_string s).

Lemma to_int_proper z : Z.to_int z <> Decimal.Pos Decimal.Nil /\ Z.to_int z <> Decimal.Neg Decimal.Nil.
Proof.
  destruct z as [|p|p]; cbn; split; try discriminate;
    intros H; injection H as H; exact (DecimalPos.Unsigned.to_uint_nonnil p H).
Qed.

Theorem read_dec_str z : read_dec (dec_str z) = Some z.
Proof.
  unfold read_dec, dec_str. destruct (to_int_proper z) as [H1 H2].
  rewrite DecimalString.NilZero.isi by assumption. cbn. f_equal. apply DecimalZ.of_to.
Qed.

(* hexadecimal, upper case as Python prints it *)
Definition upper (a : ascii) : ascii :=
  match a with
  | "a" => "A" | "b" => "B" | "c" => "C" | "d" => "D" | "e" => "E" | "f" => "F" | _ => a
  end%char.
Definition lower (a : ascii) : ascii :=
  match a with
  | "A" => "a" | "B" => "b" | "C" => "c" | "D" => "d" | "E" => "e" | "F" => "f" | _ => a
  end%char.
Fixpoint smap (f : ascii -> ascii) (s : string) : string :=
  match s with EmptyString => EmptyString | String a r => String (f a) (smap f r) end.

Definition hex_str (z : Z) : string :=
  smap upper (HexadecimalString.NilZero.string_of_int (Z.to_hex_int z)).
(* the reader accepts both cases *)
Definition read_hex (s : string) : option Z :=
  option_map Z.of_hex_int (HexadecimalString.NilZero.int_of_string (smap lower s)).

Lemma to_hex_int_proper z :
  Z.to_hex_int z <> Hexadecimal.Pos Hexadecimal.Nil /\ Z.to_hex_int z <> Hexadecimal.Neg Hexadecimal.Nil.
Proof.
  destruct z as [|p|p]; cbn; split; try discriminate;
    intros H; injection H as H; exact (HexadecimalPos.Unsigned.to_uint_nonnil p H).
Qed.

Lemma lower_upper_uint d :
  smap lower (smap upper (HexadecimalString.NilEmpty.string_of_uint d)) = HexadecimalString.NilEmpty.string_of_uint d.
Proof. induction d; cbn; rewrite ?IHd; reflexivity. Qed.

Lemma lower_upper_int d :
  smap lower (smap upper (HexadecimalString.NilZero.string_of_int d)) = HexadecimalString.NilZero.string_of_int d.
Proof. destruct d as [u|u]; destruct u; cbn; try reflexivity; rewrite lower_upper_uint; reflexivity. Qed.

Theorem read_hex_str z : read_hex (hex_str z) = Some z.
Proof.
  unfold read_hex, hex_str. rewrite lower_upper_int. destruct (to_hex_int_proper z) as [H1 H2].
  rewrite HexadecimalString.NilZero.isi by assumption. cbn. f_equal. apply HexadecimalZ.of_to.
Qed.

(* utils.format_int *)
Fixpoint zmem (z : Z) (l : list Z) : bool :=
  match l with [] => false | x :: r => Z.eqb z x || zmem z r end.

(* decimal up to 10000 and for known prefab hashes, otherwise "$" + upper-case hex *)
Definition format_int (hashes : list Z) (z : Z) : string :=
  if (z <=? 10000)%Z || zmem z hashes then dec_str z else String "$" (hex_str z).

(* the chip's reading of an integer literal *)
Definition read_int_literal (s : string) : option Z :=
  match s with
  | String a r => if Ascii.eqb a "$" then read_hex r else read_dec s
  | EmptyString => read_dec s
  end.

(* a decimal string starts with '-' or a digit, never with '$' *)
Lemma read_int_literal_dec_str z : read_int_literal (dec_str z) = read_dec (dec_str z).
Proof.
  unfold dec_str. destruct z as [|p|p]; [reflexivity| |reflexivity].
  cbn. destruct (Pos.to_uint p); reflexivity.
Qed.

Theorem format_int_roundtrip hashes z : read_int_literal (format_int hashes z) = Some z.
Proof.
  unfold format_int. destruct ((z <=? 10000)%Z || zmem z hashes).
  - rewrite read_int_literal_dec_str. apply read_dec_str.
  - cbn. apply read_hex_str.
Qed.

From Coq Require Import List ZArith.
From PV Require Import IC10.Values IC10.Machine IC10.MachineProofs Model.Layout.
Import ListNotations.

Section P.
Context {val : Type}.
Variable A : valg val.
Notation state := (@state val).

Definition stays_failed (s' s : state) : Prop := pc s' = pc s /\ st s' <> Running.

Lemma fail_pc s c : stays_failed (fail s c) s. Proof. split; [reflexivity|discriminate]. Qed.

Lemma exec_noncontrol O p s op args : is_control op = false ->
  pc (exec A O p s op args) = S (pc s) \/ stays_failed (exec A O p s op args) s.
Proof.
  intros Hc. destruct (exec_outcome A O p s op args) as [s0 c Q _|c _|s0 Q|s0 n Q C|s0 Q C];
    try congruence (* out_jump, out_halt: not for a non-control opcode *);
    try apply quiet_same in Q as (P & _).
  - (* out_err *) right. split; [exact P|discriminate].
  - (* out_shape *) right. apply fail_pc.
  - (* out_next *) left. exact (f_equal S P).
Qed.

Theorem step_noncontrol O p s op args :
  st s = Running -> nth_error p (pc s) = Some (LInstr op args) -> is_control op = false ->
  pc (step A O p s) = S (pc s) \/ st (step A O p s) <> Running.
Proof.
  intros Hr Hn Hc. unfold step. rewrite Hr, Hn.
  destruct (exec_noncontrol O p s op args Hc) as [H|[_ H]]; [left; exact H|right; exact H].
Qed.

(* j, jr and hcf never continue with the following line by sequential flow: the new program
   counter is the evaluated target (or the machine stops) *)
Theorem step_terminator O p s l :
  st s = Running -> nth_error p (pc s) = Some l -> seq_falls l = false ->
  exists op args, l = LInstr op args /\
    ((op = IHcf /\ st (step A O p s) <> Running) \/
     (st (step A O p s) <> Running) \/
     (exists t v, (op = IJ \/ op = IJr) /\ args = [t] /\ oval A p s t = Some v /\
        (op = IJ -> exists z, v_to_Z A v = Some z /\ pc (step A O p s) = Z.to_nat z) /\
        (op = IJr -> exists z, v_to_Z A v = Some z /\ pc (step A O p s) = Z.to_nat (Z.of_nat (pc s) + z)))).
Proof.
  intros Hr Hn Hs. destruct l as [id|op args]; [discriminate|]. exists op, args. split; [reflexivity|].
  unfold step. rewrite Hr, Hn.
  destruct op; try discriminate Hs; cbn [exec].
  - (* IJ *) destruct args as [|t [|? ?]]; try (right; left; cbn; discriminate).
    unfold branch. destruct (oval A p s t) as [v|] eqn:Ev; [|right; left; cbn; discriminate].
    unfold jump_abs. destruct (v_to_Z A v) as [z|] eqn:Ez; [|right; left; cbn; discriminate].
    destruct (0 <=? z)%Z; [|right; left; cbn; discriminate].
    right; right. exists t, v. repeat split; auto.
    + intros _. exists z. split; [exact Ez|reflexivity].
    + intros H; discriminate H.
  - (* IJr *) destruct args as [|t [|? ?]]; try (right; left; cbn; discriminate).
    unfold branch. destruct (oval A p s t) as [v|] eqn:Ev; [|right; left; cbn; discriminate].
    unfold jump_rel. destruct (v_to_Z A v) as [z|] eqn:Ez; [|right; left; cbn; discriminate].
    destruct (0 <=? Z.of_nat (pc s) + z)%Z; [|right; left; cbn; discriminate].
    right; right. exists t, v. repeat split; auto.
    + intros H; discriminate H.
    + intros _. exists z. split; [exact Ez|reflexivity].
  - (* IHcf *) destruct args; [left; split; [reflexivity|cbn; discriminate]|right; left; cbn; discriminate].
Qed.

(* closed layout: the line before every region entry is such a terminator *)
Theorem closed_spec (p : @program val) entries : closed p entries = true ->
  forall e, In e entries -> exists k l, e = S k /\ nth_error p k = Some l /\ seq_falls l = false.
Proof.
  unfold closed. rewrite forallb_forall. intros H e Hin. specialize (H e Hin).
  destruct e as [|k]; [discriminate|]. destruct (nth_error p k) as [l|] eqn:E; [|discriminate].
  exists k, l. split; [reflexivity|]. split; [exact E|]. destruct (seq_falls l); [discriminate|reflexivity].
Qed.
End P.

(* The scope loop of register_assignment.assign_registers (after fix 65c3091): scopes are processed
   in an order in which every caller precedes its callees; a scope may use the registers r0..r15 that
   none of its callers has blocked; it blocks what its callers block plus what it uses itself; a scope
   that owns no register symbol still passes its callers' blocked set on.

   Theorem: a scope never uses a register that ANY of its transitive callers uses. *)
From Coq Require Import List Arith Bool.
Import ListNotations.

Definition all16 : list nat := seq 0 16.
Fixpoint nmem (x : nat) (l : list nat) : bool := match l with [] => false | y :: r => Nat.eqb x y || nmem x r end.
Definition minus (a b : list nat) : list nat := filter (fun x => negb (nmem x b)) a.

Fixpoint lookup (m : list (nat * list nat)) (k : nat) : list nat :=
  match m with [] => [] | (k', v) :: r => if Nat.eqb k k' then v else lookup r k end.

Fixpoint pick (avail : list nat) (cs : list nat) : option (list nat) :=
  match cs with
  | [] => Some []
  | c :: r => match nth_error avail c, pick avail r with
              | Some reg, Some rs => Some (reg :: rs)
              | _, _ => None                 (* colour beyond the available registers: out of registers *)
              end
  end.

Lemma nmem_In x l : nmem x l = true <-> In x l.
Proof.
  induction l as [|y r IH]; cbn; [split; [discriminate|tauto]|].
  rewrite orb_true_iff, Nat.eqb_eq, IH. split; intros [H|H]; auto.
Qed.

Lemma pick_in avail : forall cs rs, pick avail cs = Some rs -> forall x, In x rs -> In x avail.
Proof.
  induction cs as [|c r IH]; intros rs H x Hx; cbn in H.
  - injection H as <-. destruct Hx.
  - destruct (nth_error avail c) as [reg|] eqn:E; [|discriminate]. destruct (pick avail r) as [rs'|]; [|discriminate].
    injection H as <-. destruct Hx as [<-|Hx]; [eapply nth_error_In; exact E|exact (IH rs' eq_refl x Hx)].
Qed.

Lemma minus_spec a b x : In x (minus a b) <-> In x a /\ ~ In x b.
Proof.
  unfold minus. rewrite filter_In, negb_true_iff, <- not_true_iff_false.
  apply and_iff_compat_l, not_iff_compat, nmem_In.
Qed.

Lemma lookup_same m k v : lookup ((k, v) :: m) k = v.
Proof. cbn. rewrite Nat.eqb_refl. reflexivity. Qed.

Lemma lookup_fresh m k v k' : k' <> k -> lookup ((k, v) :: m) k' = lookup m k'.
Proof. intros H. cbn. destruct (Nat.eqb_spec k' k); [contradiction|reflexivity]. Qed.

Lemma in_flat_lookup m ks r : In r (flat_map (lookup m) ks) <-> exists k, In k ks /\ In r (lookup m k).
Proof. rewrite in_flat_map. tauto. Qed.

Section A.
Variable callers : nat -> list nat.              (* called_from *)
Variable colours : nat -> option (list nat).     (* colour indices of the scope's own register symbols; None: no symbols *)

Record st := { blocked : list (nat * list nat); used : list (nat * list nat) }.

Definition step (s : st) (sc : nat) : option st :=
  let parent := flat_map (lookup (blocked s)) (callers sc) in
  match colours sc with
  | None => Some {| blocked := (sc, parent) :: blocked s; used := used s |}
  | Some cs =>
      match pick (minus all16 parent) cs with
      | Some rs => Some {| blocked := (sc, rs ++ parent) :: blocked s; used := (sc, rs) :: used s |}
      | None => None
      end
  end.

Fixpoint run (s : st) (order : list nat) : option st :=
  match order with
  | [] => Some s
  | sc :: r => match step s sc with Some s' => run s' r | None => None end
  end.

(* transitive callers *)
Inductive ancestor : nat -> nat -> Prop :=
| anc_direct : forall a s, In a (callers s) -> ancestor a s
| anc_step : forall a b s, ancestor a b -> In b (callers s) -> ancestor a s.

(* every caller of a scope of the order stands earlier in it, and no scope is listed twice *)
Fixpoint topo (done order : list nat) : Prop :=
  match order with
  | [] => True
  | sc :: r => (forall k, In k (callers sc) -> In k done) /\ ~ In sc done /\ topo (sc :: done) r
  end.

(* invariant over the processed scopes `done`:
   (I1) blocked(x) contains used(x), and blocked(k) for every caller k of x
   (I2) used(x) is disjoint from blocked(k) for every caller k of x
   (I3) scopes not yet processed have no entry
   (I4) the callers of a processed scope are processed *)
Definition Inv (done : list nat) (s : st) : Prop :=
  (forall x, In x done -> (forall r, In r (lookup (used s) x) -> In r (lookup (blocked s) x)) /\
                          (forall k r, In k (callers x) -> In r (lookup (blocked s) k) -> In r (lookup (blocked s) x)) /\
                          (forall k r, In k (callers x) -> In r (lookup (used s) x) -> ~ In r (lookup (blocked s) k))) /\
  (forall x, ~ In x done -> lookup (used s) x = [] /\ lookup (blocked s) x = []) /\
  (forall x k, In x done -> In k (callers x) -> In k done).

(* what a step does, read through lookup: only the entries of sc change; sc blocks what it uses and
   what its callers block, and uses nothing its callers block.  A scope without symbols gets no
   entry in `used`, which reads the same as an empty one as long as sc had none before. *)
Lemma step_lookup s sc s' : step s sc = Some s' -> lookup (used s) sc = [] ->
  let parent := flat_map (lookup (blocked s)) (callers sc) in
  (forall x, x <> sc -> lookup (blocked s') x = lookup (blocked s) x /\ lookup (used s') x = lookup (used s) x) /\
  lookup (blocked s') sc = lookup (used s') sc ++ parent /\
  (forall r, In r (lookup (used s') sc) -> ~ In r parent).
Proof.
  intros Hs Hu parent. unfold step in Hs. fold parent in Hs. destruct (colours sc) as [cs|].
  - destruct (pick (minus all16 parent) cs) as [rs|] eqn:Ep; [|discriminate]. injection Hs as <-.
    cbn [blocked used]. rewrite !lookup_same. split; [|split; [reflexivity|]].
    + intros x Hx. rewrite !lookup_fresh by exact Hx. split; reflexivity.
    + intros r Hr. apply (pick_in _ _ _ Ep), minus_spec in Hr. apply Hr.
  - injection Hs as <-. cbn [blocked used]. rewrite lookup_same, Hu. split; [|split; [reflexivity|intros r []]].
    intros x Hx. rewrite lookup_fresh by exact Hx. split; reflexivity.
Qed.

Lemma step_inv done s sc s' :
  Inv done s -> (forall k, In k (callers sc) -> In k done) -> ~ In sc done -> step s sc = Some s' -> Inv (sc :: done) s'.
Proof.
  intros (I & J & K0) Hc Hn Hs.
  destruct (step_lookup _ _ _ Hs (proj1 (J sc Hn))) as (Hoth & Hb & Hu).
  assert (forall x, In x done -> x <> sc) as Hd by (intros x Hx ->; exact (Hn Hx)).
  assert (forall x k, In x (sc :: done) -> In k (callers x) -> In k done) as K1.
  { intros x k [<-|Hx] Hk; [exact (Hc k Hk)|exact (K0 x k Hx Hk)]. }
  split; [|split].
  - intros x Hx.
    (* the callers of x were processed before sc: their entries are untouched *)
    assert (forall k, In k (callers x) -> lookup (blocked s') k = lookup (blocked s) k) as Hk.
    { intros k Hk. apply Hoth, Hd, (K1 x k Hx Hk). }
    destruct Hx as [<-|Hx].
    + rewrite Hb. repeat split.
      * intros r Hr. apply in_or_app. left. exact Hr.
      * intros k r Hkx Hr. rewrite (Hk k Hkx) in Hr. apply in_or_app. right. apply in_flat_lookup. eauto.
      * intros k r Hkx Hr Hbk. rewrite (Hk k Hkx) in Hbk. apply (Hu r Hr), in_flat_lookup. eauto.
    + destruct (Hoth x (Hd x Hx)) as [-> ->]. destruct (I x Hx) as (A & B & C). repeat split.
      * exact A.
      * intros k r Hkx. rewrite (Hk k Hkx). exact (B k r Hkx).
      * intros k r Hkx. rewrite (Hk k Hkx). exact (C k r Hkx).
  - intros x Hx. destruct (Hoth x) as [-> ->]; [intros ->; apply Hx; left; reflexivity|].
    apply J. intros Hx'. apply Hx. right. exact Hx'.
  - intros x k Hx Hk. right. exact (K1 x k Hx Hk).
Qed.

Lemma run_inv : forall order done s s', Inv done s -> topo done order -> run s order = Some s' ->
  Inv (rev order ++ done) s'.
Proof.
  induction order as [|sc r IH]; intros done s s' Hi Ht Hr; cbn in Hr.
  - injection Hr as <-. exact Hi.
  - destruct Ht as (Hc & Hn & Ht). destruct (step s sc) as [s1|] eqn:E; [|discriminate].
    cbn [rev]. rewrite <- app_assoc. cbn [app].
    apply (IH (sc :: done) s1 s'); [exact (step_inv done s sc s1 Hi Hc Hn E)|exact Ht|exact Hr].
Qed.

(* with the invariant: what a scope blocks contains what every transitive caller uses *)
Lemma ancestors_blocked done s : Inv done s -> forall a x, ancestor a x -> In x done ->
  In a done /\ forall r, In r (lookup (used s) a) -> In r (lookup (blocked s) x).
Proof.
  intros (I & J & K0) a x H. induction H as [a x Hax|a b x Hab IH Hbx]; intros Hx.
  - split; [exact (K0 x a Hx Hax)|]. intros r Hr.
    destruct (I x Hx) as (_ & B & _). apply (B a r Hax).
    destruct (I a (K0 x a Hx Hax)) as (A & _ & _). exact (A r Hr).
  - assert (In b done) as Hb by exact (K0 x b Hx Hbx).
    destruct (IH Hb) as (Ha & Hsub). split; [exact Ha|]. intros r Hr.
    destruct (I x Hx) as (_ & B & _). apply (B b r Hbx). exact (Hsub r Hr).
Qed.

Definition init : st := {| blocked := []; used := [] |}.

(* Whatever the call graph, the colours and the order (callers first): a register used
   by a scope is used by none of its transitive callers *)
Theorem no_register_shared_with_a_transitive_caller : forall order s',
  topo [] order -> run init order = Some s' ->
  forall a x r, ancestor a x -> In x order -> In r (lookup (used s') x) -> ~ In r (lookup (used s') a).
Proof.
  intros order s' Ht Hr a x r Hax Hx Hrx Hra.
  assert (Inv [] init) as I0.
  { split; [intros ? []|]. split; [intros; split; reflexivity|intros ? ? []]. }
  pose proof (run_inv order [] init s' I0 Ht Hr) as Hi. rewrite app_nil_r in Hi.
  apply in_rev in Hx.
  (* walk up: a is an ancestor of x through some direct caller k of x; used(a) is inside blocked(k) *)
  destruct Hi as (I & J & K0).
  inversion Hax as [a0 x0 Hd|a0 b x0 Hab Hbx]; subst.
  - destruct (I x Hx) as (_ & _ & C). apply (C a r Hd Hrx).
    destruct (I a (K0 x a Hx Hd)) as (A & _ & _). exact (A r Hra).
  - destruct (I x Hx) as (_ & _ & C). apply (C b r Hbx Hrx).
    destruct (ancestors_blocked (rev order) s' (conj I (conj J K0)) a b Hab (K0 x b Hx Hbx)) as (_ & Hsub).
    exact (Hsub r Hra).
Qed.
End A.

Fixpoint assoc {X} (l : list (nat * X)) (d : X) (k : nat) : X :=
  match l with [] => d | (k', v) :: r => if Nat.eqb k k' then v else assoc r d k end.

Fixpoint topo_b (callers : nat -> list nat) (done order : list nat) : bool :=
  match order with
  | [] => true
  | sc :: r => forallb (fun k => nmem k done) (callers sc) && negb (nmem sc done) && topo_b callers (sc :: done) r
  end.
Lemma topo_b_sound callers : forall order done, topo_b callers done order = true -> topo callers done order.
Proof.
  induction order as [|sc r IH]; intros done H; cbn in H |- *; [exact I|].
  apply andb_prop in H as [H H3]. apply andb_prop in H as [H1 H2].
  split; [|split].
  - intros k Hk. rewrite forallb_forall in H1. apply (proj1 (nmem_In k done)). exact (H1 k Hk).
  - intros K. apply (proj2 (nmem_In sc done)) in K. rewrite K in H2. discriminate.
  - exact (IH _ H3).
Qed.

Fixpoint list_eqb (a b : list nat) : bool :=
  match a, b with
  | [], [] => true
  | x :: r, y :: s => Nat.eqb x y && list_eqb r s
  | _, _ => false
  end.
Lemma list_eqb_eq : forall a b, list_eqb a b = true -> a = b.
Proof.
  induction a as [|x r IH]; intros [|y s] H; cbn in H; try discriminate; [reflexivity|].
  apply andb_prop in H as [H1 H2]. apply Nat.eqb_eq in H1. rewrite (IH s H2), H1. reflexivity.
Qed.

(* the data exported from one real compilation: scope order, called_from, colours of the newly mapped
   symbols per scope, and the registers the compiler gave them *)
Definition check_alloc (order : list nat) (cf : list (nat * list nat)) (cols : list (nat * option (list nat)))
                       (given : list (nat * list nat)) : bool :=
  let callers := assoc cf [] in
  topo_b callers [] order &&
  match run callers (assoc cols None) init order with
  | Some s' => forallb (fun sc => list_eqb (lookup (used s') sc) (lookup given sc)) order
  | None => false
  end.

(* an accepted certificate means: in THAT compilation no scope shares a register with any of its
   transitive callers *)
Theorem check_alloc_sound order cf cols given : check_alloc order cf cols given = true ->
  forall a x r, ancestor (assoc cf []) a x -> In x order -> In a order ->
    In r (lookup given x) -> ~ In r (lookup given a).
Proof.
  unfold check_alloc. intros H a x r Hax Hx Ha Hrx Hra.
  apply andb_prop in H as [Ht H]. apply topo_b_sound in Ht.
  destruct (run (assoc cf []) (assoc cols None) init order) as [s'|] eqn:E; [|discriminate].
  rewrite forallb_forall in H.
  rewrite <- (list_eqb_eq _ _ (H x Hx)) in Hrx. rewrite <- (list_eqb_eq _ _ (H a Ha)) in Hra.
  exact (no_register_shared_with_a_transitive_caller _ _ order s' Ht E a x r Hax Hx Hrx Hra).
Qed.

Example alloc_example :
  (* main(0) calls mid(1) (no symbols) which calls leaf(2) *)
  check_alloc [0; 1; 2] [(1, [0]); (2, [1])] [(0, Some [0; 1]); (1, None); (2, Some [0; 1])] [(0, [0; 1]); (2, [2; 3])] = true.
Proof. vm_compute. reflexivity. Qed.

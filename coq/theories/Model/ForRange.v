(* The lowering of `for v in range(start, stop, step)` (generate_code.py handle_for):

       move i start
     head:
       bge i stop end        (ble when the constant step is negative)
       <body>
     cont:
       add i i step
       j head
     end:

   against Python's range: the values start + k*step for k = 0 .. len-1 with CPython's length formula.
   The loop variable is not assigned by the body (the dialect's generator and the compiler's alias
   rules keep it frozen), so the iteration sequence is a function of (start, stop, step). *)
From Coq Require Import ZArith List Lia String.
Import ListNotations.
Local Open Scope Z_scope.

(* CPython: len(range(a, b, s)) *)
Definition range_len (a b s : Z) : Z :=
  if 0 <? s then (if a <? b then (b - a - 1) / s + 1 else 0)
  else if s <? 0 then (if b <? a then (a - b - 1) / (- s) + 1 else 0)
  else 0.

Fixpoint range_from (i s : Z) (n : nat) : list Z :=
  match n with O => [] | S k => i :: range_from (i + s) s k end.
Definition py_range (a b s : Z) : list Z := range_from a s (Z.to_nat (range_len a b s)).

(* the emitted loop: `exit_test` is the branch in front of the body *)
Inductive exit_test := TGe | TLe | TGt | TLt.
Definition exits (t : exit_test) (i b : Z) : bool :=
  match t with TGe => b <=? i | TLe => i <=? b | TGt => b <? i | TLt => i <? b end.
Fixpoint loop (t : exit_test) (i b s : Z) (fuel : nat) : list Z :=
  match fuel with
  | O => []
  | S k => if exits t i b then [] else i :: loop t (i + s) b s k
  end.

(* the exit test named by the branch opcode that handle_for emits (it chooses by the sign of the constant step) *)
Definition test_of_opcode (op : String.string) : option exit_test :=
  (if String.eqb op "bge" then Some TGe else if String.eqb op "ble" then Some TLe
   else if String.eqb op "bgt" then Some TGt else if String.eqb op "blt" then Some TLt else None)%string.

(* CPython's length obeys the loop's own recursion: the exit test fires exactly on an empty range, and
   otherwise the range from a is a followed by the range from a + s *)
Lemma len_up a b s : 0 < s -> range_len a b s = if exits TGe a b then 0 else 1 + range_len (a + s) b s.
Proof.
  intros Hs. unfold range_len, exits. rewrite (proj2 (Z.ltb_lt 0 s) Hs).
  destruct (Z.leb_spec b a), (Z.ltb_spec a b); try lia.
  destruct (Z.ltb_spec (a + s) b).
  - replace (b - a - 1) with (b - (a + s) - 1 + 1 * s) by lia. rewrite Z.div_add by lia. lia.
  - rewrite Z.div_small by lia. lia.
Qed.
Lemma len_down a b s : s < 0 -> range_len a b s = if exits TLe a b then 0 else 1 + range_len (a + s) b s.
Proof.
  intros Hs. unfold range_len, exits. rewrite (proj2 (Z.ltb_ge 0 s)), (proj2 (Z.ltb_lt s 0)) by lia.
  destruct (Z.leb_spec a b), (Z.ltb_spec b a); try lia.
  destruct (Z.ltb_spec b (a + s)).
  - replace (a - b - 1) with (a + s - b - 1 + 1 * - s) by lia. rewrite Z.div_add by lia. lia.
  - rewrite Z.div_small by lia. lia.
Qed.
Lemma len_nonneg a b s : 0 <= range_len a b s.
Proof.
  unfold range_len. destruct (Z.ltb_spec 0 s); [|destruct (Z.ltb_spec s 0); [|lia]].
  - destruct (Z.ltb_spec a b); [|lia]. pose proof (Z.div_pos (b - a - 1) s). lia.
  - destruct (Z.ltb_spec b a); [|lia]. pose proof (Z.div_pos (a - b - 1) (- s)). lia.
Qed.

(* a loop whose exit test stands in that relation to the length visits exactly range(a, b, s) *)
Theorem loop_is_range t b s :
  (forall a, range_len a b s = if exits t a b then 0 else 1 + range_len (a + s) b s) ->
  forall fuel a, (Z.to_nat (range_len a b s) < fuel)%nat -> loop t a b s fuel = py_range a b s.
Proof.
  intros H. induction fuel as [|k IH]; intros a Hf; [lia|].
  unfold py_range. cbn [loop]. rewrite H in *. destruct (exits t a b); [reflexivity|].
  pose proof (len_nonneg (a + s) b s). rewrite Z2Nat.inj_add, Nat.add_1_l in * by lia.
  cbn [range_from]. f_equal. apply IH. lia.
Qed.

Corollary loop_up_is_range a b s : 0 < s ->
  forall fuel, (Z.to_nat (range_len a b s) < fuel)%nat -> loop TGe a b s fuel = py_range a b s.
Proof. intros Hs fuel. apply loop_is_range. intros a'. exact (len_up a' b s Hs). Qed.
Corollary loop_down_is_range a b s : s < 0 ->
  forall fuel, (Z.to_nat (range_len a b s) < fuel)%nat -> loop TLe a b s fuel = py_range a b s.
Proof. intros Hs fuel. apply loop_is_range. intros a'. exact (len_down a' b s Hs). Qed.

(* the strict tests are wrong on ranges that land on `stop` *)
Example strict_test_refuted : loop TLt 3 0 (-1) 10 <> py_range 3 0 (-1) /\ loop TGt 0 3 1 10 <> py_range 0 3 1.
Proof. split; vm_compute; discriminate. Qed.

Example range_examples :
  py_range 0 3 1 = [0; 1; 2] /\ py_range 6 0 (-2) = [6; 4; 2] /\ py_range 5 0 (-2) = [5; 3; 1] /\ py_range 3 3 1 = [] /\
  loop TGe 0 3 1 9 = [0; 1; 2] /\ loop TLe 6 0 (-2) 9 = [6; 4; 2].
Proof. repeat split; reflexivity. Qed.

(* Soundness of the outcome analysis: every concrete execution of a skeleton is covered by an
   element of `outs`. *)
From Coq Require Import List String Lia.
From PV Require Import Model.SkelSem.
Import ListNotations.

Scheme exec_min := Minimality for exec Sort Prop
  with exec_seq_min := Minimality for exec_seq Sort Prop
  with handled_min := Minimality for handled Sort Prop.
Combined Scheme exec_mutind from exec_min, exec_seq_min, handled_min.

Definition absr (a : option bool) (nn : bool) : Prop := match a with Some b => b = nn | None => True end.
Definition cnt_ok (c : cnt) (d : nat) : Prop := match c with C0 => d = 0 | C1 => d = 1 | CMany => True end.

Lemma cadd_ok c1 c2 d1 d2 : cnt_ok c1 d1 -> cnt_ok c2 d2 -> cnt_ok (cadd c1 c2) (d1 + d2).
Proof. destruct c1, c2; cbn; intros; subst; auto. Qed.

(* from s to s' some d replies are written (never unwritten), and the count c allows d *)
Definition writes (c : cnt) (s s' : cstate) : Prop := exists d, cnt_ok c d /\ snd s' = snd s + d.

Lemma writes_none s s' : snd s' = snd s -> writes C0 s s'.
Proof. exists 0. split; [reflexivity|lia]. Qed.

Lemma writes_cadd {c1 c2 s0 s1 s2} : writes c1 s0 s1 -> writes c2 s1 s2 -> writes (cadd c1 c2) s0 s2.
Proof. intros (d1 & H1 & E1) (d2 & H2 & E2). exists (d1 + d2). split; [apply cadd_ok; assumption|lia]. Qed.

Definition covers (l : list ares) (o : outcome) (s s' : cstate) : Prop :=
  exists a c, In (o, a, c) l /\ absr a (fst s') /\ writes c s s'.

Lemma covers_incl l l' o s s' : incl l l' -> covers l o s s' -> covers l' o s s'.
Proof. intros Hi (a & c & H & R). exists a, c. split; [apply Hi, H|exact R]. Qed.

Lemma covers_app_l l1 l2 o s s' : covers l1 o s s' -> covers (l1 ++ l2) o s s'.
Proof. apply covers_incl, incl_appl, incl_refl. Qed.
Lemma covers_app_r l1 l2 o s s' : covers l2 o s s' -> covers (l1 ++ l2) o s s'.
Proof. apply covers_incl, incl_appr, incl_refl. Qed.
Lemma covers_flat_map {f : ares -> list ares} {l r o s s'} : In r l -> covers (f r) o s s' -> covers (flat_map f l) o s s'.
Proof. intros Hr. apply covers_incl. intros x Hx. apply in_flat_map. exists r. auto. Qed.

Lemma covers_one o a c s s' : absr a (fst s') /\ writes c s s' -> covers [(o, a, c)] o s s'.
Proof. exists a, c. split; [left; reflexivity|assumption]. Qed.

(* a statement that ends where it started is covered by a last element that keeps the
   abstraction and counts no reply *)
Lemma covers_stay l o a s : absr a (fst s) -> covers (l ++ [(o, a, C0)]) o s s.
Proof. intros Ha. apply covers_app_r, covers_one. split; [exact Ha|apply writes_none; reflexivity]. Qed.

(* c1 replies from s0 to s1, then an execution from s1 covered by l; g is the identity for
   `addc c1`, and the outcome selection of `with_finally` *)
Lemma covers_cadd (g : outcome -> outcome) {l o c1 s0 s1 s2} : writes c1 s0 s1 -> covers l o s1 s2 ->
  covers (map (fun '(o2, a2, c2) => (g o2, a2, cadd c1 c2)) l) (g o) s0 s2.
Proof.
  intros H1 (a & c & Hin & Ha & Hc). exists a, (cadd c1 c).
  split; [exact (in_map _ _ _ Hin)|]. split; [exact Ha|exact (writes_cadd H1 Hc)].
Qed.

Section S.
Variable E : aenv.

Lemma covers_raise e a x s rest : In x (raises E e) -> absr a (fst s) ->
  covers (raise_outs E e a ++ rest) (ORaise x) s s.
Proof.
  intros Hin Ha. apply covers_app_l. exists a, C0.
  split; [exact (in_map _ _ _ Hin)|]. split; [exact Ha|apply writes_none; reflexivity].
Qed.

(* if: the branches the analysis keeps include the branch taken *)
Lemma cond_may_val {c nn b a} : cond_may E c nn b -> absr a nn ->
  match cond_val E c a with Some v => v = b | None => True end.
Proof. intros [H1 H2] Ha. destruct a as [v|]; [cbn in Ha; subst v|]; assumption. Qed.

Lemma covers_if {c nn} (b : bool) {a X Y o s s'} : cond_may E c nn b -> absr a nn ->
  covers (if b then X else Y) o s s' ->
  covers (match cond_val E c a with Some true => X | Some false => Y | None => X ++ Y end) o s s'.
Proof.
  intros Hm Ha H. pose proof (cond_may_val Hm Ha) as K.
  destruct (cond_val E c a) as [v|]; [subst v; destruct b; exact H|].
  destruct b; [apply covers_app_l|apply covers_app_r]; exact H.
Qed.

(* loops: every element of loop_outs carries the count loop_c B, which one more run of the
   body does not change *)
Definition loop_c (B : list ares) : cnt := if all_c0 B then C0 else CMany.

Lemma loop_c_none B s : absr None (fst s) /\ writes (loop_c B) s s.
Proof. split; [exact I|]. exists 0. split; [unfold loop_c; destruct (all_c0 B); reflexivity|lia]. Qed.

Lemma loop_c_absorbs {B o a c} : In (o, a, c) B -> cadd c (loop_c B) = loop_c B.
Proof.
  intros Hin. unfold loop_c, all_c0. destruct (forallb _ B) eqn:K; [|destruct c; reflexivity].
  rewrite forallb_forall in K. specialize (K _ Hin). destruct c; [reflexivity|discriminate K..].
Qed.

Lemma loop_outs_elem {head B o a c} : In (o, a, c) (loop_outs E head B) -> c = loop_c B.
Proof.
  unfold loop_outs. intros H. apply in_app_or in H as [H|[H|H]].
  - apply in_map_iff in H as (x & [= _ _ <-] & _). reflexivity.
  - injection H as _ _ <-. reflexivity.
  - apply in_flat_map in H as ([[o1 a1] c1] & _ & H).
    destruct o1; cbn in H; try contradiction; destruct H as [[= _ _ <-]|[]]; reflexivity.
Qed.

Lemma loop_prepend {head B o1 s s1 o s'} :
  covers B o1 s s1 -> covers (loop_outs E head B) o s1 s' -> covers (loop_outs E head B) o s s'.
Proof.
  intros (a1 & c1 & Hin1 & _ & H1) (a & c & Hin & Ha & Hc). exists a, c. split; [exact Hin|]. split; [exact Ha|].
  pose proof (loop_outs_elem Hin) as ->. rewrite <- (loop_c_absorbs Hin1). exact (writes_cadd H1 Hc).
Qed.

Lemma loop_head_raise head B x s : In x (raises E head) -> covers (loop_outs E head B) (ORaise x) s s.
Proof.
  intros Hx. apply covers_app_l. exists None, (loop_c B).
  split; [exact (in_map _ _ _ Hx)|apply loop_c_none].
Qed.

Lemma loop_stop head B s : covers (loop_outs E head B) ONormal s s.
Proof. apply covers_app_r, covers_app_l, covers_one, loop_c_none. Qed.

Lemma loop_exit {head B o s s'} : covers B o s s' -> (o = OReturn \/ exists x, o = ORaise x) ->
  covers (loop_outs E head B) o s s'.
Proof.
  intros HB Ho. apply (loop_prepend HB). destruct HB as (a & c & Hin & _).
  apply covers_app_r, covers_app_r, (covers_flat_map Hin).
  destruct Ho as [->|[x ->]]; apply covers_one, loop_c_none.
Qed.

Lemma pick_hmap hs x : pick (hmap (outs E) hs) x = option_map (outs E) (find_handler hs x).
Proof.
  induction hs as [|[n h] r IH]; cbn; [reflexivity|]. destruct (catches n x); [reflexivity|exact IH].
Qed.

(* For `handled` the statement is about the whole list B that covers the body: whatever the
   handlers do after an execution covered by B is covered by after_handlers of B. *)
Theorem outs_covers_all :
  (forall s sk o s', exec E s sk o s' -> forall a, absr a (fst s) -> covers (outs E sk a) o s s') /\
  (forall s l o s', exec_seq E s l o s' ->
     forall a, absr a (fst s) -> covers (seq_outs (outs E) l a) o s s') /\
  (forall hs o1 s1 o2 s2, handled E hs o1 s1 o2 s2 ->
     forall B s0, covers B o1 s0 s1 -> covers (after_handlers (hmap (outs E) hs) B) o2 s0 s2).
Proof.
  apply exec_mutind.
  - (* expr *) intros s e x Hx a Ha. apply covers_raise; assumption.
  - intros s e a Ha. apply covers_app_r, covers_one. split; [exact Ha|].
    destruct (is_print E e); [exists 1|exists 0]; cbn; split; lia.
  - (* assign *) intros s t e x Hx a Ha. apply covers_raise; assumption.
  - intros s t e a Ha. apply covers_app_r, covers_one. split; [|apply writes_none; reflexivity].
    cbn. destruct (String.eqb t (tracked E)); [reflexivity|exact Ha].
  - (* return *) intros s e x Hx a Ha. apply covers_raise; assumption.
  - intros s e a Ha. apply covers_stay, Ha.
  - (* raise, break, continue, pass, import *) intros s e a Ha. apply (covers_stay []), Ha.
  - intros s a Ha. apply (covers_stay []), Ha.
  - intros s a Ha. apply (covers_stay []), Ha.
  - intros s a Ha. apply (covers_stay []), Ha.
  - intros s a Ha. apply (covers_stay []), Ha.
  - (* if *) intros s c x y e Hx a Ha. apply covers_raise; assumption.
  - intros s c x y o s' Hm _ IH a Ha. apply covers_app_r, (covers_if true Hm Ha), IH, Ha.
  - intros s c x y o s' Hm _ IH a Ha. apply covers_app_r, (covers_if false Hm Ha), IH, Ha.
  - (* seq *) intros s l o s' _ IH. exact IH.
  - (* while *) intros s c body x Hx a _. apply loop_head_raise, Hx.
  - intros s c body a _. apply loop_stop.
  - intros s c body o1 s1 o s' _ IH1 _ _ IH2 a _. exact (loop_prepend (IH1 None I) (IH2 None I)).
  - intros s c body s1 _ IH a _. apply (loop_prepend (IH None I)), loop_stop.
  - intros s c body o1 s1 _ IH Ho a _. exact (loop_exit (IH None I) Ho).
  - (* for *) intros s t it body x Hx a _. apply loop_head_raise, Hx.
  - intros s t it body a _. apply loop_stop.
  - intros s t it body o1 s1 o s' _ IH1 _ _ IH2 a _. exact (loop_prepend (IH1 None I) (IH2 None I)).
  - intros s t it body s1 _ IH a _. apply (loop_prepend (IH None I)), loop_stop.
  - intros s t it body o1 s1 _ IH Ho a _. exact (loop_exit (IH None I) Ho).
  - (* try *) intros s body hs fin o1 s1 o2 s2 o3 s3 _ IHb _ IHh _ IHf a Ha.
    destruct (IHh _ _ (IHb a Ha)) as (a2 & c2 & Hin & Ha2 & Hw). apply (covers_flat_map Hin).
    exact (covers_cadd (fun o3 => match o3 with ONormal => o2 | _ => o3 end) Hw (IHf a2 Ha2)).
  - (* exec_seq *) intros s a Ha. apply (covers_stay []), Ha.
  - intros s x r o s' _ IH Hne a Ha. destruct (IH a Ha) as (a1 & c1 & Hin & R).
    apply (covers_flat_map Hin). destruct o; try (apply covers_one, R). contradiction.
  - intros s x r s1 o s' _ IH1 _ IH2 a Ha. destruct (IH1 a Ha) as (a1 & c1 & Hin & Ha1 & Hw).
    apply (covers_flat_map Hin). exact (covers_cadd (fun o => o) Hw (IH2 a1 Ha1)).
  - (* handled *) intros hs o s Hnr B s0 (a & c & Hin & R).
    apply (covers_flat_map Hin). destruct o; try (apply covers_one, R). edestruct Hnr; reflexivity.
  - intros hs x s Hf B s0 (a & c & Hin & R).
    apply (covers_flat_map Hin). rewrite pick_hmap, Hf. apply covers_one, R.
  - intros hs x s h o s' Hf _ IH B s0 (a & c & Hin & Ha & Hw).
    apply (covers_flat_map Hin). rewrite pick_hmap, Hf.
    exact (covers_cadd (fun o => o) Hw (IH a Ha)).
Qed.

Corollary outs_covers s sk o s' : exec E s sk o s' -> forall a, absr a (fst s) -> covers (outs E sk a) o s s'.
Proof. apply outs_covers_all. Qed.

(* the same in terms of the analysis alone, the count read as a difference *)
Theorem outs_sound s sk o s' : exec E s sk o s' -> forall a, absr a (fst s) ->
  exists a' c, In (o, a', c) (outs E sk a) /\ absr a' (fst s') /\ cnt_ok c (snd s' - snd s).
Proof.
  intros H a Ha. destruct (outs_covers _ _ _ _ H a Ha) as (a' & c & Hin & Ha' & d & Hc & Hd).
  exists a', c. replace (snd s' - snd s) with d by lia. auto.
Qed.

(* How a property of all executions of a skeleton is decided by evaluation: a test that every
   element of the analysis passes, nothing known at the start, is passed by the element that
   covers the execution. *)
Theorem outs_all (P : ares -> bool) sk : forallb P (outs E sk None) = true ->
  forall s o s', exec E s sk o s' ->
  exists a' c d, P (o, a', c) = true /\ absr a' (fst s') /\ cnt_ok c d /\ snd s' = snd s + d.
Proof.
  intros HP s o s' H. destruct (outs_covers _ _ _ _ H None I) as (a' & c & Hin & Ha' & d & Hc & Hd).
  rewrite forallb_forall in HP. exists a', c, d. auto.
Qed.

End S.

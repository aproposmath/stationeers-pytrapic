(* add_ra_instructions, push/pop convention: what the insertions amount to.
   Inserting at strictly descending positions is the same as decorating the original list: before
   the element with original index i stand exactly the elements scheduled for position i.  Read off
   the decorated list: every exit of the function is guarded by a `pop ra` (scan). *)
From Coq Require Import List Arith Bool Lia Permutation Sorted.
From PV Require Import Model.RaInsert.
Import ListNotations.

Section Gen.
Context {X : Type}.

(* elements scheduled for position i *)
Definition at_pos (L : list (nat * X)) (i : nat) : list X :=
  map snd (filter (fun q => Nat.eqb (fst q) i) L).

Fixpoint decorate (f : nat -> list X) (c : list X) (i : nat) : list X :=
  match c with
  | [] => f i
  | x :: r => f i ++ x :: decorate f r (S i)
  end.

Lemma decorate_ext f g : (forall j, f j = g j) -> forall c i, decorate f c i = decorate g c i.
Proof.
  intros H. induction c as [|y r IH]; intros i; cbn; rewrite H; [reflexivity|].
  rewrite IH. reflexivity.
Qed.

Lemma decorate_head f : forall (c : list X) i, (forall j, i < j -> f j = []) -> decorate f c i = f i ++ c.
Proof.
  induction c as [|y r IH]; intros i H; cbn.
  - symmetry. apply app_nil_r.
  - rewrite IH by (intros j Hj; apply H; lia). rewrite (H (S i)) by lia. reflexivity.
Qed.

(* inserting x in front of the element with index p (the n-th from offset i) into a list decorated
   by f, where f schedules nothing at or after p, is decorating with x added at p *)
Lemma decorate_insert f (x : X) p : (forall j, p <= j -> f j = []) -> forall n c i,
  p = i + n -> n <= length c ->
  decorate f (insert_at n x c) i = decorate (fun j => if Nat.eqb p j then x :: f j else f j) c i.
Proof.
  intros Hf. induction n as [|n IH]; intros c i Hp Hn.
  - (* at p: both sides are x :: c *)
    replace i with p by lia. cbn [insert_at decorate]. rewrite !decorate_head.
    + rewrite Nat.eqb_refl, !Hf by lia. reflexivity.
    + intros j Hj. destruct (Nat.eqb_spec p j); [lia|apply Hf; lia].
    + intros j Hj. apply Hf. lia.
  - destruct c as [|y r]; cbn in Hn; [lia|]. cbn [insert_at decorate]. destruct (Nat.eqb_spec p i); [lia|].
    do 2 f_equal. apply IH; lia.
Qed.

Lemma at_pos_cons p (x : X) L i : at_pos ((p, x) :: L) i = if Nat.eqb p i then x :: at_pos L i else at_pos L i.
Proof. unfold at_pos. cbn. destruct (Nat.eqb p i); reflexivity. Qed.

Lemma at_pos_none L i : ~ In i (map fst L) -> at_pos L i = [].
Proof.
  induction L as [|[p x] L IH]; intros H; [reflexivity|]. rewrite at_pos_cons.
  destruct (Nat.eqb_spec p i) as [E|_]; [destruct H; left; exact E|].
  apply IH. intros K. apply H. right. exact K.
Qed.

Lemma at_pos_single L i x : NoDup (map fst L) -> In (i, x) L -> at_pos L i = [x].
Proof.
  induction L as [|[p y] L IH]; intros N Hin; [destruct Hin|].
  apply NoDup_cons_iff in N as [Hp N]. rewrite at_pos_cons. destruct Hin as [[= -> ->]|Hin].
  - rewrite Nat.eqb_refl, (at_pos_none L i Hp). reflexivity.
  - destruct (Nat.eqb_spec p i) as [->|_]; [|exact (IH N Hin)].
    destruct Hp. exact (in_map fst L (i, x) Hin).
Qed.

Lemma insert_at_length (x : X) : forall c p, length (insert_at p x c) = S (length c).
Proof.
  induction c as [|y r IH]; intros [|p]; cbn; try reflexivity. rewrite IH. reflexivity.
Qed.

Theorem descending_inserts_decorate : forall L c,
  StronglySorted gt (map fst L) -> (forall q, In q L -> fst q <= length c) ->
  fold_left (fun acc q => insert_at (fst q) (snd q) acc) L c = decorate (at_pos L) c 0.
Proof.
  induction L as [|q L IH]; intros c Hd Hlen; cbn [fold_left].
  - symmetry. apply (decorate_head (at_pos [])). reflexivity.
  - apply StronglySorted_inv in Hd as [Hd Hlt]. rewrite Forall_forall in Hlt.
    pose proof (Hlen q (or_introl eq_refl)) as Hp.
    assert (forall j, fst q <= j -> at_pos L j = []) as Hnil.
    { intros j Hj. apply at_pos_none. intros Hin. specialize (Hlt j Hin). lia. }
    rewrite IH; [|exact Hd|].
    + rewrite (decorate_insert (at_pos L) (snd q) (fst q) Hnil (fst q) c 0 eq_refl Hp).
      apply decorate_ext. intros j. destruct q. symmetry. apply at_pos_cons.
    + intros q' Hq. rewrite insert_at_length. specialize (Hlt _ (in_map fst L q' Hq)). lia.
Qed.
End Gen.

Lemma insert_sorted_perm (p : nat * ins) : forall l, Permutation (insert_sorted p l) (p :: l).
Proof.
  induction l as [|q r IH]; cbn; [reflexivity|].
  destruct (Nat.leb (fst q) (fst p)); [reflexivity|]. rewrite IH. apply perm_swap.
Qed.
Lemma sort_desc_perm : forall l, Permutation (sort_desc l) l.
Proof.
  induction l as [|p r IH]; cbn; [constructor|]. rewrite insert_sorted_perm. apply perm_skip. exact IH.
Qed.

Lemma insert_sorted_desc p : forall l, StronglySorted ge (map fst l) -> StronglySorted ge (map fst (insert_sorted p l)).
Proof.
  induction l as [|q r IH]; intros H; cbn.
  - repeat constructor.
  - apply StronglySorted_inv in H as [Hr Hq]. destruct (Nat.leb_spec (fst q) (fst p)) as [E|E]; cbn [map].
    + constructor; [constructor; assumption|]. constructor; [exact E|].
      revert Hq. apply Forall_impl. intros y Hy. lia.
    + constructor; [exact (IH Hr)|]. rewrite insert_sorted_perm. constructor; [lia|exact Hq].
Qed.
Lemma sort_desc_desc : forall l, StronglySorted ge (map fst (sort_desc l)).
Proof. induction l as [|p r IH]; cbn; [constructor|]. apply insert_sorted_desc. exact IH. Qed.

Lemma desc_strict l : StronglySorted ge l -> NoDup l -> StronglySorted gt l.
Proof.
  induction 1 as [|a l _ IH Ha]; intros N; [constructor|].
  apply NoDup_cons_iff in N as [Hnin N]. constructor; [exact (IH N)|].
  rewrite Forall_forall in *. intros y Hy. specialize (Ha y Hy).
  assert (y <> a) by (intros ->; exact (Hnin Hy)). lia.
Qed.

Definition is_exit (x : ins) : bool := match x with JEnd | EndLab => true | _ => false end.

(* a reader of the result: a `pop ra` arms the guard, a value push keeps it, every exit needs it *)
Fixpoint scan (r : list ins) (armed : bool) : bool :=
  match r with
  | [] => true
  | PopRa :: t => scan t true
  | PushV :: t => scan t armed
  | JEnd :: t | EndLab :: t => armed && scan t false
  | _ :: t => scan t false
  end.

Lemma scan_cons x t armed :
  scan (x :: t) armed =
  (negb (is_exit x) || armed) && scan t (match x with PopRa => true | PushV => armed | _ => false end).
Proof. destruct x, armed; reflexivity. Qed.

Lemma mem_reflect i l : reflect (In i l) (existsb (Nat.eqb i) l).
Proof.
  apply iff_reflect. rewrite existsb_exists. split.
  - intros H. exists i. split; [exact H|apply Nat.eqb_refl].
  - intros (z & Hz & E). apply Nat.eqb_eq in E. subst z. exact Hz.
Qed.

Lemma dedup_is_nodup l : dedup l = nodup Nat.eq_dec l.
Proof.
  induction l as [|y r IH]; cbn; [reflexivity|].
  destruct (mem_reflect y r), (in_dec Nat.eq_dec y r); try contradiction; rewrite IH; reflexivity.
Qed.
Lemma dedup_in x l : In x (dedup l) <-> In x l.
Proof. rewrite dedup_is_nodup. apply nodup_In. Qed.
Lemma dedup_nodup l : NoDup (dedup l).
Proof. rewrite dedup_is_nodup. apply NoDup_nodup. Qed.

Lemma exit_points_cons y r k : exit_points (y :: r) k = (if is_exit y then [k] else []) ++ exit_points r (S k).
Proof. destruct y; reflexivity. Qed.

Lemma exit_points_spec : forall c k i, In i (exit_points c k) <-> exists j x, i = k + j /\ nth_error c j = Some x /\ is_exit x = true.
Proof.
  induction c as [|y r IH]; intros k i.
  - split; [intros []|intros ([] & x & _ & [=] & _)].
  - rewrite exit_points_cons, in_app_iff, IH. split.
    + intros [H|(j & x & -> & H)].
      * destruct (is_exit y) eqn:E; [|destruct H]. destruct H as [<-|[]]. exists 0, y. rewrite Nat.add_0_r. auto.
      * exists (S j), x. rewrite Nat.add_succ_r. auto.
    + intros ([|j] & x & -> & H & E).
      * left. injection H as <-. rewrite E, Nat.add_0_r. left. reflexivity.
      * right. exists j, x. rewrite Nat.add_succ_r. auto.
Qed.

Lemma pop_pos_cases c i : pop_pos c i = i \/ exists k, i = S k /\ nth_error c k = Some PushV /\ pop_pos c i = k.
Proof.
  destruct i as [|k]; [left; reflexivity|]. unfold pop_pos.
  destruct (nth_error c k) as [[]|] eqn:E; auto. right. exists k. auto.
Qed.

(* a function's code starts with its label, then come the argument pops: `push ra` goes behind the
   label or behind an argument pop *)
Lemma before_push_pos c y : nth_error c 0 = Some y ->
  nth_error c (leading_pops (tl c)) = Some y \/ nth_error c (leading_pops (tl c)) = Some PopArg.
Proof.
  destruct c as [|y' l]; intros [= ->]. cbn [tl]. revert y.
  induction l as [|z r IH]; intros y; [left; reflexivity|].
  destruct z; try (left; reflexivity). right. destruct (IH PopArg) as [E|E]; exact E.
Qed.

Section Main.
Variable c : list ins.
Let nargs := leading_pops (tl c).
Let pops := dedup (map (pop_pos c) (exit_points c 0)).
Let inserts := (1 + nargs, PushRa) :: map (fun p => (p, PopRa)) pops.
Let F := at_pos (sort_desc inserts).
(* what ends up in front of the instruction with original index i *)
Let front i := if Nat.eqb (1 + nargs) i then [PushRa] else if existsb (Nat.eqb i) pops then [PopRa] else [].

Hypothesis Hlab : nth_error c 0 = Some Lab.
(* The position of `push ra` is not also a position of a `pop ra`.  It is one when the body starts with an
   exit (an unconditional `return` in front of code that calls): the model, like the Python code, then puts
   `pop ra` in front of `push ra`, and the theorems below do not speak of such a function. *)
Hypothesis Hfresh : ~ In (1 + nargs) pops.

Lemma before_push : nth_error c nargs = Some Lab \/ nth_error c nargs = Some PopArg.
Proof. exact (before_push_pos c Lab Hlab). Qed.

Lemma pops_spec p : In p pops <-> exists j x, p = pop_pos c j /\ nth_error c j = Some x /\ is_exit x = true.
Proof.
  unfold pops. rewrite dedup_in, in_map_iff. split.
  - intros (e & <- & He). apply exit_points_spec in He as (j & x & -> & H). exists j, x. auto.
  - intros (j & x & -> & H). exists j. split; [reflexivity|]. apply exit_points_spec. exists j, x. auto.
Qed.

Lemma sorted_positions : Permutation (map fst (sort_desc inserts)) ((1 + nargs) :: pops).
Proof.
  rewrite sort_desc_perm. unfold inserts. cbn [map fst]. rewrite map_map. cbn [fst]. rewrite map_id. reflexivity.
Qed.

Lemma inserts_nodup : NoDup (map fst (sort_desc inserts)).
Proof. rewrite sorted_positions. constructor; [exact Hfresh|apply dedup_nodup]. Qed.

Lemma positions_bounded : forall q, In q (sort_desc inserts) -> fst q <= length c.
Proof.
  intros q Hq. apply (in_map fst) in Hq. rewrite sorted_positions in Hq. destruct Hq as [<-|Hq].
  - apply nth_error_Some. destruct before_push as [E|E]; rewrite E; discriminate.
  - apply pops_spec in Hq as (j & x & -> & Hj & _).
    assert (j < length c) by (apply nth_error_Some; congruence).
    destruct (pop_pos_cases c j) as [->|(k & -> & _ & ->)]; lia.
Qed.

Theorem pushpop_is_decorate : have_calls c && have_returns c = true -> add_ra_pushpop c = decorate F c 0.
Proof.
  intros H. unfold add_ra_pushpop. rewrite H.
  apply descending_inserts_decorate; [|exact positions_bounded].
  apply desc_strict; [apply sort_desc_desc|exact inserts_nodup].
Qed.

(* the positions are distinct, so the one entry with position i is all that is scheduled for i *)
Lemma F_spec i : F i = front i.
Proof.
  unfold F, front.
  assert (forall x, In (i, x) inserts -> at_pos (sort_desc inserts) i = [x]) as One.
  { intros x Hin. apply (at_pos_single _ _ _ inserts_nodup). rewrite sort_desc_perm. exact Hin. }
  destruct (Nat.eqb_spec (1 + nargs) i) as [<-|Hne]; [apply One; left; reflexivity|].
  destruct (mem_reflect i pops) as [Hin|Hni].
  - apply One. right. exact (in_map (fun p => (p, PopRa)) pops i Hin).
  - apply at_pos_none. rewrite sorted_positions. intros [E|Hin]; [exact (Hne E)|exact (Hni Hin)].
Qed.

(* `push ra` behind the argument pops, `pop ra` in front of each pop position, nothing else *)
Theorem pushpop_result : have_calls c && have_returns c = true -> add_ra_pushpop c = decorate front c 0.
Proof. intros H. rewrite (pushpop_is_decorate H). apply decorate_ext. exact F_spec. Qed.

Lemma exit_guard i x : nth_error c i = Some x -> is_exit x = true ->
  In i pops \/ exists k, i = S k /\ nth_error c k = Some PushV /\ In k pops.
Proof.
  intros H E. assert (In (pop_pos c i) pops) as Hin by (apply pops_spec; exists i, x; auto).
  destruct (pop_pos_cases c i) as [Ei|(k & -> & Hk & Ei)]; rewrite Ei in Hin; [left; exact Hin|].
  right. exists k. auto.
Qed.

Lemma push_pos_not_exit x : nth_error c (1 + nargs) = Some x -> is_exit x = false.
Proof.
  intros H. destruct (is_exit x) eqn:E; [exfalso|reflexivity].
  destruct (exit_guard _ _ H E) as [Hin|(k & [= <-] & Hk & _)]; [exact (Hfresh Hin)|].
  destruct before_push as [B|B]; congruence.
Qed.

(* Reading the result from index i on.  All that has to be remembered of what came before: if a value
   push with a `pop ra` in front of it has just been read, the guard is armed.  An exit with no
   `pop ra` of its own directly in front is, by exit_guard, behind such a push. *)
Lemma scan_suffix : forall suf i armed, (forall j, nth_error suf j = nth_error c (j + i)) ->
  match i with S k => nth_error c k = Some PushV -> In k pops -> armed = true | 0 => True end ->
  scan (decorate front suf i) armed = true.
Proof.
  induction suf as [|x rest IH]; intros i armed Hs Hinv; cbn [decorate]; unfold front at 1.
  - destruct (Nat.eqb (1 + nargs) i), (existsb (Nat.eqb i) pops); reflexivity.
  - pose proof (eq_sym (Hs 0)) as Hx. cbn in Hx.
    assert (forall a, (x = PushV -> In i pops -> a = true) -> scan (decorate front rest (S i)) a = true) as Next.
    { intros a Ha. apply IH; [intros j; rewrite Nat.add_succ_r; exact (Hs (S j))|].
      intros Hv. apply Ha. congruence. }
    destruct (Nat.eqb_spec (1 + nargs) i) as [<-|_]; [|destruct (mem_reflect i pops) as [Hin|Hni]];
      cbn [app]; rewrite !scan_cons; cbn [is_exit negb orb andb].
    + (* push ra in front of x, which is no exit *)
      rewrite (push_pos_not_exit x Hx). apply Next. intros _ Hin. destruct (Hfresh Hin).
    + (* pop ra in front of x *)
      rewrite orb_true_r. apply Next. intros -> _. reflexivity.
    + (* nothing in front of x *)
      apply andb_true_intro. split; [|apply Next; intros _ Hin; destruct (Hni Hin)].
      destruct (is_exit x) eqn:E; [cbn|reflexivity].
      destruct (exit_guard i x Hx E) as [Hin|(k & -> & Hk & Hin)]; [destruct (Hni Hin)|exact (Hinv Hk Hin)].
Qed.

(* Every exit of the function (an early return `j <name>end`, or the end label) is reached with the
   return address restored: reading the result from the top, each exit is preceded by `pop ra`, with
   at most the push of the return value in between. *)
Theorem pushpop_exits_are_guarded :
  have_calls c && have_returns c = true -> scan (add_ra_pushpop c) false = true.
Proof.
  intros H. rewrite (pushpop_result H). apply scan_suffix; [|exact I].
  intros j. rewrite Nat.add_0_r. reflexivity.
Qed.
End Main.

Example pushpop_example :
  let c := [Lab; PopArg; Other; Call; PushV; JEnd; Other; PushV; EndLab; JRa] in
  nth_error c 0 = Some Lab /\
  ~ In (1 + leading_pops (tl c)) (dedup (map (pop_pos c) (exit_points c 0))) /\
  have_calls c && have_returns c = true /\
  add_ra_pushpop c = [Lab; PopArg; PushRa; Other; Call; PopRa; PushV; JEnd; Other; PopRa; PushV; EndLab; JRa].
Proof.
  split; [reflexivity|]. split; [|split; reflexivity].
  vm_compute. intros [H|[H|[]]]; discriminate H.
Qed.

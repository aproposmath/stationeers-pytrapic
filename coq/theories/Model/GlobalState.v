(* Process-wide state touched by compile_code and why it cannot influence a result:
   - the output mode is overwritten from the request's options before it is used;
   - the constexpr cache only ever holds pairs (generated script, value of that script), so a
     lookup gives what a fresh evaluation gives;
   - the hash set of format_int is filled from constant tables before its first use.
   The compiler proper is an oracle `comp` that uses the evaluator only by calling it. *)
From Coq Require Import List.
Import ListNotations.

Section GS.
Variables Src Opt Res Key Val : Type.
Variable key_eqb : Key -> Key -> bool.
Hypothesis key_eqb_eq : forall a b, key_eqb a b = true -> a = b.
Variable ev : Key -> Val.                                  (* deterministic child evaluation *)
Variable pragmas : Src -> Opt -> Opt.                      (* directive scanner, on a COPY of the options *)
Variable compact : Opt -> bool.
(* result and the scripts evaluated on the way *)
Variable comp : bool -> Src -> Opt -> (Key -> Val) -> Res * list Key.
Hypothesis comp_ext : forall m s o f g, (forall k, f k = g k) -> comp m s o f = comp m s o g.

Record gstate := { mode : bool; cache : list (Key * Val); hashes_filled : bool }.
Definition ginit : gstate := {| mode := false; cache := []; hashes_filled := false |}.

Fixpoint assoc (k : Key) (c : list (Key * Val)) : option Val :=
  match c with [] => None | (k', v) :: r => if key_eqb k k' then Some v else assoc k r end.
Definition look (c : list (Key * Val)) (k : Key) : Val :=
  match assoc k c with Some v => v | None => ev k end.

Definition serve (g : gstate) (r : Src * Opt) : gstate * Res :=
  let o := pragmas (fst r) (snd r) in
  let m := compact o in
  let '(res, used) := comp m (fst r) o (look (cache g)) in
  ({| mode := m; cache := map (fun k => (k, look (cache g) k)) used ++ cache g; hashes_filled := true |}, res).

Definition run_history (h : list (Src * Opt)) : gstate := fold_left (fun g r => fst (serve g r)) h ginit.

(* invariant: the cache is a subset of the graph of the evaluator *)
Definition Inv (g : gstate) : Prop := forall k v, In (k, v) (cache g) -> v = ev k.

Lemma assoc_in k c v : assoc k c = Some v -> In (k, v) c.
Proof.
  induction c as [|[k' v'] c IH]; cbn; [discriminate|].
  destruct (key_eqb k k') eqn:E; [|auto]. intros [= <-]. left. rewrite (key_eqb_eq _ _ E). reflexivity.
Qed.

Lemma look_is_ev g : Inv g -> forall k, look (cache g) k = ev k.
Proof.
  intros HI k. unfold look. destruct (assoc k (cache g)) as [v|] eqn:E; [|reflexivity].
  exact (HI _ _ (assoc_in _ _ _ E)).
Qed.

Lemma inv_init : Inv ginit. Proof. intros k v []. Qed.

Lemma inv_serve g r : Inv g -> Inv (fst (serve g r)).
Proof.
  intros HI. unfold serve. destruct (comp _ _ _ _) as [res used]. cbn [fst cache].
  intros k v Hin. apply in_app_or in Hin as [Hin|Hin]; [|exact (HI _ _ Hin)].
  apply in_map_iff in Hin as (k0 & Hk & _). injection Hk as <- <-. apply look_is_ev. exact HI.
Qed.

Lemma inv_history h : Inv (run_history h).
Proof.
  induction h as [|r h IH] using rev_ind; [exact inv_init|].
  unfold run_history. rewrite fold_left_app. apply inv_serve, IH.
Qed.

(* the result of a request does not depend on the state it is served in, as long as the
   invariant holds ... *)
Lemma serve_result_indep g r : Inv g ->
  snd (serve g r) = fst (comp (compact (pragmas (fst r) (snd r))) (fst r) (pragmas (fst r) (snd r)) ev).
Proof.
  intros HI. unfold serve.
  rewrite (comp_ext _ _ _ (look (cache g)) ev (look_is_ev g HI)).
  destruct (comp _ _ _ ev) as [res used]. reflexivity.
Qed.

(* ... hence, for EVERY history and request: the result after the history equals the result in
   a fresh process *)
Theorem history_independent h r : snd (serve (run_history h) r) = snd (serve ginit r).
Proof. rewrite (serve_result_indep _ r (inv_history h)), (serve_result_indep _ r inv_init). reflexivity. Qed.
End GS.

(* What an accepted table check of Model/Tables.v means (enum_ok, hash_ok), facts about its helpers (assoc,
   str_mem, str_nodup), and a cheaper form of singular_ok for evaluation over the whole table. *)
From Coq Require Import List ZArith String Bool.
From PV Require Import Base.CRC32 Model.Tables.
Import ListNotations.

Lemma z_mem_In z l : z_mem z l = true <-> In z l.
Proof.
  induction l as [|x l IH]; cbn; [split; [discriminate|tauto]|].
  rewrite orb_true_iff, IH, Z.eqb_eq. split; intros [H|H]; auto.
Qed.

Lemma z_nodup_NoDup l : z_nodup l = true -> NoDup l.
Proof.
  induction l as [|x l IH]; cbn; intros H; [constructor|].
  apply andb_prop in H as [H1 H2]. constructor; [|auto].
  intros Hin. apply z_mem_In in Hin. rewrite Hin in H1. discriminate.
Qed.

Lemma NoDup_snd_inj {A} (l : list (A * Z)) : NoDup (map snd l) ->
  forall a b v, In (a, v) l -> In (b, v) l -> a = b.
Proof.
  induction l as [|[a0 v0] l IH]; cbn; intros ND a b v Ha Hb; [tauto|].
  inversion ND as [|? ? Hn ND']; subst.
  destruct Ha as [Ha|Ha], Hb as [Hb|Hb].
  - congruence.
  - injection Ha as <- <-. destruct Hn. exact (in_map snd l (b, v0) Hb).
  - injection Hb as <- <-. destruct Hn. exact (in_map snd l (a, v0) Ha).
  - eauto.
Qed.

Lemma enum_ok_inj e : enum_ok e = true ->
  forall a b v, In (a, v) (snd e) -> In (b, v) (snd e) -> a = b.
Proof.
  unfold enum_ok. intros H. apply andb_prop in H as [H _].
  apply NoDup_snd_inj, z_nodup_NoDup, H.
Qed.

Lemma assoc_In {A} k (l : list (string * A)) v : assoc k l = Some v -> In (k, v) l.
Proof.
  induction l as [|[k' v'] l IH]; cbn; [discriminate|].
  destruct (String.eqb_spec k k') as [->|_]; [intros [= ->]; left; reflexivity|right; auto].
Qed.

Lemma str_mem_In s l : str_mem s l = true <-> In s l.
Proof.
  induction l as [|x l IH]; cbn; [split; [discriminate|tauto]|].
  rewrite orb_true_iff, IH, String.eqb_eq. split; intros [H|H]; auto.
Qed.

(* assoc returns the first pair with the key; with unique keys that is the only one *)
Lemma str_nodup_assoc {A} (l : list (string * A)) k v :
  str_nodup (map fst l) = true -> In (k, v) l -> assoc k l = Some v.
Proof.
  induction l as [|[k' v'] l IH]; cbn; intros H Hin; [destruct Hin|].
  apply andb_prop in H as [Hk H]. destruct Hin as [E|Hin].
  - injection E as -> ->. rewrite String.eqb_refl. reflexivity.
  - destruct (String.eqb_spec k k') as [<-|_]; [|exact (IH H Hin)].
    rewrite (proj2 (str_mem_In k (map fst l)) (in_map fst l (k, v) Hin)) in Hk. discriminate.
Qed.

Lemma enum_ok_assoc e name v : enum_ok e = true -> In (name, v) (snd e) -> assoc name (snd e) = Some v.
Proof. unfold enum_ok. intros H. apply andb_prop in H as [_ H]. apply str_nodup_assoc, H. Qed.

Lemma hash_ok_spec c h p : hash_ok c = true -> c_hash c = Some h -> c_prefab c = Some p ->
  h = signed32 (crc32_bytes (bytes_of_string p)).
Proof.
  unfold hash_ok. intros H Hh Hp. rewrite Hh, Hp in H. apply Z.eqb_eq in H. exact H.
Qed.

(* singular_ok looks through all classes for every class, recomputing each plural class's target as it
   goes; over a table that is quadratic in string comparisons.  The same count over the list of plural
   targets, which can be computed once. *)
Definition plural_targets (cs : list class_row) : list string :=
  flat_map (fun p => if is_structure p && is_plural p
                     then match plural_target p with Some n => [n] | None => [] end else []) cs.
Definition singular_ok_in (targets : list string) (c : class_row) : bool :=
  if is_structure c && is_singular c && negb (is_plural c)
  then Nat.eqb (List.length (filter (fun n => String.eqb n (c_name c)) targets)) 1 else true.

Lemma singular_ok_targets cs c : singular_ok cs c = singular_ok_in (plural_targets cs) c.
Proof.
  unfold singular_ok, singular_ok_in. destruct (_ && _ && _); [|reflexivity]. f_equal.
  induction cs as [|p cs IH]; [reflexivity|]. cbn [filter plural_targets flat_map].
  fold (plural_targets cs). rewrite filter_app, app_length, <- IH.
  destruct (is_structure p && is_plural p); [|reflexivity].
  destruct (plural_target p) as [n|]; [|reflexivity]. cbn. destruct (String.eqb n (c_name c)); reflexivity.
Qed.

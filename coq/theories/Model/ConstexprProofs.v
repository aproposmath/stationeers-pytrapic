From Coq Require Import List NArith Bool.
From PV Require Import Model.FormatNum Model.Constexpr.
Import ListNotations.

Lemma at_start_app w : forall rest, (match rest with [] => True | c :: _ => is_word c = false end) ->
  at_start w (w ++ rest) = true.
Proof.
  induction w as [|a w IH]; intros rest H; cbn.
  - destruct rest as [|c r]; [reflexivity|]. rewrite H. reflexivity.
  - rewrite N.eqb_refl. apply IH. exact H.
Qed.

Lemma find_word_at_start w s : at_start w s = true -> find_word w s false = true.
Proof. intros H. destruct s; cbn; rewrite H; reflexivity. Qed.

(* an occurrence of the word delimited by non-word characters (or the ends) is found, wherever
   it stands in the text *)
Theorem find_word_complete w : forall pre rest pw,
  (match rev pre with [] => pw = false | c :: _ => is_word c = false end) ->
  (match rest with [] => True | c :: _ => is_word c = false end) ->
  find_word w (pre ++ w ++ rest) pw = true.
Proof.
  induction pre as [|p pre IH]; intros rest pw Hpre Hrest; cbn [app rev] in *.
  - subst pw. apply find_word_at_start, at_start_app, Hrest.
  - cbn [find_word]. rewrite IH; [apply orb_true_r| |exact Hrest]. destruct (rev pre); exact Hpre.
Qed.

Theorem forbidden_rejected pre rest w :
  w = W_OPEN \/ w = W_EVAL \/ w = W_EXEC ->
  (match rev pre with [] => True | c :: _ => is_word c = false end) ->
  (match rest with [] => True | c :: _ => is_word c = false end) ->
  forbidden (pre ++ w ++ rest) = true.
Proof.
  intros Hw Hpre Hrest. unfold forbidden.
  assert (find_word w (pre ++ w ++ rest) false = true) as K.
  { apply find_word_complete; [|exact Hrest]. destruct (rev pre); [reflexivity|exact Hpre]. }
  destruct Hw as [-> | [-> | ->]]; rewrite K; rewrite ?orb_true_r; reflexivity.
Qed.

(* every integer a constexpr function returns arrives in the emitted literal unchanged *)
Theorem transport_int_identity hashes z : transport_int hashes z = Some z.
Proof.
  unfold transport_int, json_load_int, json_int. rewrite read_dec_str. apply format_int_roundtrip.
Qed.

(* About RegAlloc.v.  Interval colouring: symbols whose lifetimes overlap never get the same colour,
   for every list of symbols (any order, any lifetimes).  Scope ordering: a successful order puts
   every scope after its callers, and a call cycle makes it fail.  Registers of a scope: taken from
   the list of available ones, or the out-of-registers error. *)
From Coq Require Import List ZArith Arith Lia Permutation.
From PV Require Import Model.RegAlloc.
From PV Require Model.RegScopes.
Import ListNotations.
Local Open Scope Z_scope.

Lemma expire_still start act : forall fr,
  fst (expire start act fr) = filter (fun p => start <? fst p) act.
Proof.
  induction act as [|[e c] act IH]; intros fr; cbn; [reflexivity|].
  rewrite (Z.ltb_antisym e start). destruct (e <=? start); cbn; [apply IH|].
  rewrite <- (IH fr). destruct (expire start act fr). reflexivity.
Qed.

(* no colour is lost or doubled: what leaves the active list is appended to the pool *)
Lemma expire_cols start act : forall fr,
  Permutation (map snd (fst (expire start act fr)) ++ snd (expire start act fr)) (map snd act ++ fr).
Proof.
  induction act as [|[e c] act IH]; intros fr; cbn; [reflexivity|]. destruct (e <=? start).
  - rewrite IH, app_assoc. symmetry. apply Permutation_cons_append.
  - specialize (IH fr). destruct (expire start act fr). cbn in *. constructor. exact IH.
Qed.

Lemma pop_last_spec l : match pop_last l with
  | Some (c, r) => l = r ++ [c]
  | None => l = [] end.
Proof. unfold pop_last. pose proof (rev_involutive l) as H. destruct (rev l); symmetry; exact H. Qed.

Lemma cstep_active s x s' c : cstep s x = (s', c) ->
  active s' = filter (fun p => s_start x <? fst p) (active s) ++ [(s_stop x, c)].
Proof.
  unfold cstep. rewrite <- (expire_still _ _ (free s)). destruct (expire _ _ _) as [still fr].
  destruct (pop_last fr) as [[c1 fr']|]; intros [= <- <-]; reflexivity.
Qed.

Definition cols (s : cst) : list nat := map snd (active s) ++ free s.

(* the colours 0 .. next-1 handed out so far are each active or free, and each only once *)
Definition CInv (s : cst) : Prop := Permutation (cols s) (seq 0 (next s)).

(* the colour given is moved from the pool to the active list, or it is the new colour `next` *)
Lemma cstep_CInv s x s' c : CInv s -> cstep s x = (s', c) -> CInv s'.
Proof.
  unfold CInv, cstep, cols. intros HI.
  pose proof (expire_cols (s_start x) (active s) (free s)) as HP. rewrite HI in HP.
  destruct (expire _ _ _) as [still fr]. cbn in HP. pose proof (pop_last_spec fr) as Hp.
  destruct (pop_last fr) as [[c1 fr']|]; intros [= <- <-]; subst fr;
    cbn [active free next]; rewrite map_app, <- app_assoc.
  - rewrite <- HP. apply Permutation_app_head, Permutation_app_comm.
  - rewrite seq_S, <- HP, !app_nil_r. reflexivity.
Qed.

(* the colour given differs from those of the intervals still active: in the new state they
   stand beside it in a list without repetition *)
Lemma cstep_fresh s x s' c : CInv s -> cstep s x = (s', c) ->
  forall e c0, In (e, c0) (active s) -> s_start x < e -> c <> c0.
Proof.
  intros HI H e c0 Hin Hlt <-.
  assert (NoDup (cols s')) as ND.
  { eapply Permutation_NoDup; [symmetry; exact (cstep_CInv _ _ _ _ HI H)|apply seq_NoDup]. }
  unfold cols in ND. rewrite (cstep_active _ _ _ _ H), map_app, <- app_assoc in ND.
  apply NoDup_remove_2 in ND. apply ND, in_or_app. left.
  apply (in_map snd _ (e, c)), filter_In. split; [exact Hin|apply Z.ltb_lt; exact Hlt].
Qed.

(* crun with each colour beside its symbol; crun itself keeps only the identifier *)
Fixpoint arun (s : cst) (l : list sym) : list (sym * nat) :=
  match l with
  | [] => []
  | x :: l' => let '(s', c) := cstep s x in (x, c) :: arun s' l'
  end.

Lemma crun_arun l : forall s, crun s l = map (fun p => (s_id (fst p), snd p)) (arun s l).
Proof.
  induction l as [|x l IH]; intros s; cbn; [reflexivity|].
  destruct (cstep s x) as [s' c]. cbn. rewrite IH. reflexivity.
Qed.

Lemma arun_syms l : forall s, map fst (arun s l) = l.
Proof.
  induction l as [|x l IH]; intros s; cbn; [reflexivity|].
  destruct (cstep s x) as [s' c]. cbn. rewrite IH. reflexivity.
Qed.

Fixpoint sorted (l : list sym) : Prop :=
  match l with
  | [] => True
  | x :: r => (forall y, In y r -> s_start x <= s_start y) /\ sorted r
  end.

(* In a list sorted by start, a symbol q that starts before an earlier symbol p stops gets a colour
   other than p's.  The entry of p is still active when q is reached, because everything in between
   starts no later than q; so the statement is carried through the list as: the colours of the
   list avoid those of the active entries that stop after their start. *)
Theorem arun_disjoint l : forall s, CInv s -> sorted l ->
  Forall (fun q => forall e c, In (e, c) (active s) -> s_start (fst q) < e -> snd q <> c) (arun s l) /\
  ForallOrdPairs (fun p q => s_start (fst q) < s_stop (fst p) -> snd q <> snd p) (arun s l).
Proof.
  induction l as [|x l IH]; intros s HI Hs; cbn; [split; constructor|].
  destruct Hs as [Hx Hs]. destruct (cstep s x) as [s' c] eqn:E.
  destruct (IH s' (cstep_CInv _ _ _ _ HI E) Hs) as [Ha Hb]. rewrite Forall_forall in Ha.
  pose proof (cstep_active _ _ _ _ E) as Hact.
  split; constructor.
  - exact (cstep_fresh _ _ _ _ HI E).
  - apply Forall_forall. intros q Hq e c0 Hin Hlt. apply (Ha q Hq e c0); [|exact Hlt].
    rewrite Hact. apply in_or_app. left. apply filter_In. split; [exact Hin|]. apply Z.ltb_lt. cbn.
    assert (s_start x <= s_start (fst q)); [|lia].
    apply Hx. rewrite <- (arun_syms l s'). apply in_map. exact Hq.
  - apply Forall_forall. intros q Hq. apply (Ha q Hq).
    rewrite Hact. apply in_or_app. right. left. reflexivity.
  - exact Hb.
Qed.

Lemma insert_perm x l : Permutation (insert_by_start x l) (x :: l).
Proof.
  induction l as [|y r IH]; cbn; [reflexivity|].
  destruct (s_start y <? s_start x); [|reflexivity].
  rewrite IH. apply perm_swap.
Qed.
Lemma sort_perm l : Permutation (sort_by_start l) l.
Proof. induction l as [|x l IH]; cbn; [constructor|]. rewrite insert_perm. constructor. exact IH. Qed.

Lemma insert_sorted x l : sorted l -> sorted (insert_by_start x l).
Proof.
  induction l as [|y r IH]; cbn; intros H; [split; [intros ? []|exact I]|].
  destruct H as [Hy Hr]. destruct (s_start y <? s_start x) eqn:E.
  - apply Z.ltb_lt in E. cbn. split; [|apply IH; exact Hr].
    intros z Hz. eapply Permutation_in in Hz; [|apply insert_perm]. destruct Hz as [<-|Hz]; [lia|apply Hy; exact Hz].
  - apply Z.ltb_ge in E. cbn. split; [|split; assumption].
    intros z [<-|Hz]; [lia|]. specialize (Hy z Hz). lia.
Qed.
Lemma sort_sorted l : sorted (sort_by_start l).
Proof. induction l as [|x l IH]; cbn; [exact I|]. apply insert_sorted. exact IH. Qed.

Definition overlap (x y : sym) : Prop := s_start x < s_stop y /\ s_start y < s_stop x.

Lemma colour_of_In (m : list (nat * nat)) id c :
  NoDup (map fst m) -> In (id, c) m -> colour_of m id = Some c.
Proof.
  induction m as [|[i0 c0] m IH]; cbn; intros ND Hin; [destruct Hin|].
  apply NoDup_cons_iff in ND as [Hnin ND].
  destruct Hin as [[= -> ->]|Hin]; [rewrite Nat.eqb_refl; reflexivity|].
  destruct (Nat.eqb_spec i0 id) as [->|_]; [|exact (IH ND Hin)].
  destruct Hnin. exact (in_map fst _ _ Hin).
Qed.

Lemma arun_colour s l z c :
  NoDup (map s_id l) -> In (z, c) (arun s l) -> colour_of (crun s l) (s_id z) = Some c.
Proof.
  intros ND Hin. rewrite crun_arun. apply colour_of_In.
  - rewrite map_map. cbn. rewrite <- (map_map fst s_id), arun_syms. exact ND.
  - exact (in_map (fun p => (s_id (fst p), snd p)) _ _ Hin).
Qed.

Theorem colours_disjoint (l : list sym) : NoDup (map s_id l) ->
  forall x y, In x l -> In y l -> s_id x <> s_id y -> overlap x y ->
    exists cx cy, colour_of (assign_colors l) (s_id x) = Some cx /\
                  colour_of (assign_colors l) (s_id y) = Some cy /\ cx <> cy.
Proof.
  intros ND x y Hx Hy Hne [O1 O2]. unfold assign_colors.
  set (s0 := {| active := []; free := []; next := 0 |}). set (sl := sort_by_start l).
  assert (Permutation l sl) as HP by (symmetry; apply sort_perm).
  assert (forall z, In z l -> exists c, In (z, c) (arun s0 sl)) as Hc.
  { intros z Hz. apply (Permutation_in _ HP) in Hz. rewrite <- (arun_syms sl s0) in Hz.
    apply in_map_iff in Hz as ([z' c] & <- & Hin). exists c. exact Hin. }
  destruct (Hc x Hx) as [cx Hcx], (Hc y Hy) as [cy Hcy].
  assert (NoDup (map s_id sl)) as NDs by exact (Permutation_NoDup (Permutation_map s_id HP) ND).
  exists cx, cy. split; [exact (arun_colour _ _ _ _ NDs Hcx)|]. split; [exact (arun_colour _ _ _ _ NDs Hcy)|].
  destruct (arun_disjoint sl s0) as [_ Hb]; [exact (perm_nil _)|apply sort_sorted|].
  destruct (ForallOrdPairs_In Hb _ _ Hcx Hcy) as [[= -> _]|[H|H]].
  - contradiction Hne. reflexivity.
  - intros ->. exact (H O2 eq_refl).
  - exact (H O1).
Qed.

Local Open Scope nat_scope.

(* RegScopes.v declares nmem and minus once more, in the same words: its lemmas hold of these *)
Lemma nmem_In x l : nmem x l = true <-> In x l.
Proof. exact (RegScopes.nmem_In x l). Qed.

Lemma subset_spec a b : subset a b = true <-> incl a b.
Proof.
  unfold subset, incl. rewrite forallb_forall. split; intros H x Hx; apply nmem_In, H, Hx.
Qed.

Lemma pick_ready_spec cf todo placed s : pick_ready cf todo placed = Some s ->
  In s todo /\ subset (callers cf s) placed = true.
Proof.
  induction todo as [|t r IH]; cbn; [discriminate|].
  destruct (subset (callers cf t) placed) eqn:E.
  - intros [= <-]. auto.
  - intros H. destruct (IH H). auto.
Qed.

Lemma remove_one_other x y l : In y l -> y <> x -> In y (remove_one x l).
Proof.
  intros Hin Hne. induction l as [|z l IH]; cbn; [exact Hin|].
  destruct (Nat.eqb_spec x z) as [<-|_]; destruct Hin as [->|Hin].
  - contradiction.
  - exact Hin.
  - left. reflexivity.
  - right. exact (IH Hin).
Qed.

(* sort_scopes looks at todo before it looks at the fuel: what holds of a successful ordering is
   shown for the empty todo list and for one round, which places a scope whose callers are all placed *)
Lemma sort_scopes_ind cf order (P : list nat -> list nat -> Prop) :
  P [] order ->
  (forall todo placed s, subset (callers cf s) placed = true ->
     P (remove_one s todo) (placed ++ [s]) -> P todo placed) ->
  forall fuel todo placed, sort_scopes fuel cf todo placed = Some order -> P todo placed.
Proof.
  intros Hnil Hstep. induction fuel as [|k IH]; intros [|t r] placed H; cbn [sort_scopes] in H; try discriminate.
  1, 2: injection H as <-; exact Hnil.
  destruct (pick_ready cf (t :: r) placed) as [s|] eqn:E; [|discriminate].
  exact (Hstep _ _ _ (proj2 (pick_ready_spec _ _ _ _ E)) (IH _ _ H)).
Qed.

(* whenever the ordering succeeds, every scope comes after all the scopes it is called from *)
Theorem sort_scopes_topological fuel cf : forall todo placed order,
  sort_scopes fuel cf todo placed = Some order ->
  exists rest, order = placed ++ rest /\
    forall a s b, rest = a ++ s :: b -> subset (callers cf s) (placed ++ a) = true.
Proof.
  intros todo placed order. revert fuel todo placed. apply sort_scopes_ind.
  - exists []. rewrite app_nil_r. split; [reflexivity|]. intros [|? ?] ? ? ?; discriminate.
  - intros todo placed s0 Hp (rest & -> & Hr).
    exists (s0 :: rest). rewrite <- app_assoc. split; [reflexivity|].
    intros [|a0 a] s b [= <- E].
    + rewrite app_nil_r. exact Hp.
    + specialize (Hr a s b E). rewrite <- app_assoc in Hr. exact Hr.
Qed.

(* a call cycle (here: any non-empty set C of scopes still to be placed, each of which is called
   from a member of C) makes the ordering fail — recursion, direct or mutual, is rejected *)
Theorem sort_scopes_rejects_cycles fuel cf (C : list nat) : forall todo placed,
  C <> [] -> (forall s, In s C -> In s todo) -> (forall s, In s C -> ~ In s placed) ->
  (forall s, In s C -> exists c, In c C /\ In c (callers cf s)) ->
  sort_scopes fuel cf todo placed = None.
Proof.
  intros todo placed Hne Hsub Hdis Hcyc.
  destruct (sort_scopes fuel cf todo placed) as [order|] eqn:H; [exfalso|reflexivity].
  revert fuel todo placed H Hsub Hdis.
  refine (sort_scopes_ind cf order
    (fun todo placed => (forall s, In s C -> In s todo) -> (forall s, In s C -> ~ In s placed) -> False) _ _).
  - intros Hsub _. destruct C as [|c C]; [contradiction|]. exact (Hsub c (or_introl eq_refl)).
  - intros todo placed s0 Hp IH Hsub Hdis.
    (* a member of C has a caller in C, which is not placed: it is not ready *)
    assert (~ In s0 C) as Hs0.
    { intros HC. destruct (Hcyc _ HC) as (c & HcC & Hcc).
      exact (Hdis c HcC (proj1 (subset_spec _ _) Hp c Hcc)). }
    apply IH.
    + intros s Hs. apply remove_one_other; [exact (Hsub s Hs)|]. intros ->. exact (Hs0 Hs).
    + intros s Hs Hp'. apply in_app_or in Hp' as [Hp'|[<-|[]]]; [exact (Hdis s Hs Hp')|exact (Hs0 Hs)].
Qed.

Corollary recursion_rejected fuel cf f todo :
  In f todo -> In f (callers cf f) -> sort_scopes fuel cf todo [] = None.
Proof.
  intros Hin Hself. apply (sort_scopes_rejects_cycles fuel cf [f]); [discriminate| | |].
  - intros s [<-|[]]. exact Hin.
  - intros s _ [].
  - intros s [<-|[]]. exists f. split; [left; reflexivity|exact Hself].
Qed.

Lemma minus_spec a b x : In x (minus a b) <-> In x a /\ ~ In x b.
Proof. exact (RegScopes.minus_spec a b x). Qed.

(* a scope's registers are taken from the available ones (Props/C04.v: r0..r15 minus the blocked) *)
Theorem scope_regs_avail avail colours : forall m, scope_regs avail colours = Some m ->
  forall id r, In (id, r) m -> In r avail.
Proof.
  induction colours as [|[id0 c0] cs IH]; cbn; intros m H id r Hin.
  - injection H as <-. destruct Hin.
  - destruct (nth_error avail c0) as [reg|] eqn:E; [|discriminate].
    destruct (scope_regs avail cs) as [m'|]; [|discriminate]. injection H as <-.
    destruct Hin as [[= _ <-]|Hin]; [exact (nth_error_In _ _ E)|exact (IH m' eq_refl id r Hin)].
Qed.

Theorem out_of_registers_is_error avail colours id c :
  In (id, c) colours -> length avail <= c -> scope_regs avail colours = None.
Proof.
  induction colours as [|[id0 c0] cs IH]; intros Hin Hc; [destruct Hin|].
  cbn [scope_regs]. destruct Hin as [Hin|Hin].
  - injection Hin as -> ->. assert (nth_error avail c = None) as -> by (apply nth_error_None; exact Hc). reflexivity.
  - destruct (nth_error avail c0); [|reflexivity]. rewrite (IH Hin Hc). reflexivity.
Qed.

From Coq Require Import List Arith Lia.
From PV Require Import IC10.Values IC10.Machine Valid.Diff.
Import ListNotations.

Section P.
Context {val : Type}.
Variable A : valg val.

(* if no difference is reported, the traces agree event by event on their common length *)
Lemma first_diff_none a : forall b i, first_diff A a b i = None ->
  forall k x y, nth_error a k = Some x -> nth_error b k = Some y -> ev_eqb A x y = true.
Proof.
  induction a as [|e a IH]; intros b i H k x y Ha Hb.
  - destruct k; discriminate.
  - destruct b as [|f b]; [destruct k; discriminate|]. cbn in H.
    destruct (ev_eqb A e f) eqn:E; [|discriminate].
    destruct k as [|k]; cbn in Ha, Hb.
    + injection Ha as <-. injection Hb as <-. exact E.
    + eapply IH; eauto.
Qed.

(* a reported index really is a difference *)
Lemma first_diff_some a : forall b i j, first_diff A a b i = Some j ->
  exists x y, nth_error a (j - i) = Some x /\ nth_error b (j - i) = Some y /\ ev_eqb A x y = false /\ i <= j.
Proof.
  induction a as [|e a IH]; intros b i j H; [discriminate|].
  destruct b as [|f b]; [discriminate|]. cbn in H.
  destruct (ev_eqb A e f) eqn:E.
  - destruct (IH _ _ _ H) as (x & y & Hx & Hy & Hne & Hle).
    exists x, y. replace (j - i) with (S (j - S i)) by lia. cbn. repeat split; auto. lia.
  - injection H as <-. exists e, f. rewrite Nat.sub_diag. cbn. auto.
Qed.

Theorem judge_agree_sound sres tt ts c i ns nt e1 e2 :
  judge A sres tt ts = (c, i, ns, nt, e1, e2) -> c = 0 ->
  forall k x y, nth_error (fst sres) k = Some x -> nth_error tt k = Some y -> ev_eqb A x y = true.
Proof.
  unfold judge. destruct sres as [se send]. cbn [fst]. intros H ->.
  (* a failed source run gives code 5, a difference code 1 *)
  destruct send; try discriminate;
  (destruct (first_diff A se tt 0) eqn:F; [discriminate|]); exact (first_diff_none se tt 0 F).
Qed.
Theorem judge2_agree_sound a sa b sb c i na nb e1 e2 :
  judge2 A a sa b sb = (c, i, na, nb, e1, e2) -> c = 0 ->
  forall k x y, nth_error a k = Some x -> nth_error b k = Some y -> ev_eqb A x y = true.
Proof.
  unfold judge2. intros H ->.
  destruct (first_diff A a b 0) eqn:F; [discriminate|]. exact (first_diff_none a b 0 F).
Qed.

Theorem run_guard_no_regions O p fuel : forall s, run_guard A O p [] fuel s = run A O p fuel s.
Proof.
  induction fuel as [|k IH]; intros s; cbn [run_guard run]; [reflexivity|].
  destruct (st s); try reflexivity. cbn [existsb andb]. apply IH.
Qed.
End P.

From Coq Require Import List Lia.
From PV Require Import IC10.Values IC10.Machine IC10.MachineProofs Valid.WfCode.

Section P.
Context {val : Type}.
Variable A : valg val.
Notation state := (@state val).

Definition no_shape_error (s : state) : Prop := st s <> Err 4 /\ st s <> Err 5.

Lemma nse_fail s c : st s = Running -> c <> 4 -> c <> 5 -> no_shape_error (fail s c).
Proof. intros _ H4 H5. split; cbn; intros [= E]; congruence. Qed.

Theorem exec_no_shape_error O p s op args :
  no_shape_error s -> wf_instr op args = true -> no_shape_error (exec A O p s op args).
Proof.
  intros H W. destruct (exec_outcome A O p s op args) as [s0 c Q Hc|c Hc|s0 Q|s0 n Q _|s0 Q _];
    (* out_next, out_jump: the status is that of s0, which is that of s *)
    try (unfold no_shape_error; cbn; rewrite (proj2 (quiet_same _ _ Q)); exact H).
  - (* out_err *) split; intros [= ->]; lia.
  - (* out_shape *) congruence.
  - (* out_halt *) split; discriminate.
Qed.

Theorem step_no_shape_error O p s :
  wf_program p = true -> no_shape_error s -> no_shape_error (step A O p s).
Proof.
  intros W H. unfold step. destruct (st s); try exact H.
  destruct (nth_error p (pc s)) as [[id|op args]|] eqn:N.
  - exact H.
  - apply exec_no_shape_error; [exact H|].
    unfold wf_program in W. rewrite forallb_forall in W. apply nth_error_In in N. exact (W _ N).
  - split; cbn; discriminate.
Qed.

Theorem run_no_shape_error O p fuel : wf_program p = true ->
  forall s, no_shape_error s -> no_shape_error (run A O p fuel s).
Proof.
  intros W. induction fuel as [|k IH]; intros s H; cbn [run]; [exact H|].
  destruct (st s); try exact H. apply IH. apply step_no_shape_error; assumption.
Qed.
End P.

From Coq Require Import List Arith Lia.
From PV Require Import IC10.Values IC10.Machine Valid.Resolve.

Section P.
Context {val : Type}.
Variable A : valg val.
Notation line := (@line val).
Notation program := (list line).

Lemma ib_0 (p : program) : instrs_before p 0 = 0.
Proof. destruct p; reflexivity. Qed.

(* the labels are looked up in a program q that stays fixed while the induction takes p apart *)
Lemma nth_resolved_in q : forall p i,
  nth_error (flat_map (res_line A q) p) (instrs_before p i) =
  match next_instr p i with
  | Some (LInstr op args) => Some (LInstr op (map (res_operand A q) args))
  | _ => None
  end.
Proof.
  induction p as [|l r IH]; intros i; [destruct i; reflexivity|].
  destruct i as [|k].
  - destruct l as [id|op args]; [|reflexivity]. specialize (IH 0). rewrite ib_0 in IH. exact IH.
  - destruct l; exact (IH k).
Qed.

Lemma ib_S : forall (p : program) i, instrs_before p (S i) =
  match nth_error p i with Some (LInstr _ _) => 1 | _ => 0 end + instrs_before p i.
Proof.
  induction p as [|l r IH]; intros i; [destruct i; reflexivity|].
  destruct i as [|k].
  - cbn [nth_error instrs_before]. rewrite !ib_0. destruct l; reflexivity.
  - cbn [nth_error instrs_before]. rewrite IH. lia.
Qed.
Lemma ib_le_len : forall (p : program) i, instrs_before p i <= length p.
Proof.
  induction p as [|l r IH]; intros [|k]; cbn; try lia. specialize (IH k). destruct (is_instr l); lia.
Qed.
Lemma next_instr_here : forall (p : program) i, (forall id, nth_error p i <> Some (LLabel id)) ->
  next_instr p i = nth_error p i.
Proof.
  induction p as [|l r IH]; intros i H; [destruct i; reflexivity|].
  destruct i as [|k]; [|exact (IH k H)]. destruct l as [id|]; [destruct (H id eq_refl)|reflexivity].
Qed.
(* a line of p that is not a label is found, resolved, at its renumbered place; past the end there is nothing *)
Lemma nth_resolved (p : program) i : (forall id, nth_error p i <> Some (LLabel id)) ->
  nth_error (resolve A p) (instrs_before p i) =
  match nth_error p i with
  | Some (LInstr op args) => Some (LInstr op (map (res_operand A p) args))
  | _ => None
  end.
Proof. intros H. rewrite <- (next_instr_here p i H). apply (nth_resolved_in p p i). Qed.

(* Every jump lands where intended: the number substituted for a label is the index, in the
   label-free program, of the (resolved) instruction that follows the label. *)
Theorem resolve_target_is_next_instruction p id n :
  label_target p id = Some n ->
  exists i, find_label p id 0 = Some i /\
    nth_error (resolve A p) n =
    match next_instr p i with
    | Some (LInstr op args) => Some (LInstr op (map (res_operand A p) args))
    | _ => None      (* the label is the last line: the target is one past the end (halt) *)
    end.
Proof.
  unfold label_target. destruct (find_label p id 0) as [i|]; [|discriminate].
  intros [= <-]. exists i. split; [reflexivity|]. apply (nth_resolved_in p p i).
Qed.

Lemma res_operand_no_label q o : match res_operand A q o with OLbl _ => False | _ => True end.
Proof. destruct o; cbn; auto. destruct (label_target q id); exact I. Qed.

Theorem resolve_label_free p : forall l, In l (resolve A p) ->
  exists op args, l = LInstr op args /\ forall o, In o args -> match o with OLbl _ => False | _ => True end.
Proof.
  unfold resolve. intros l Hin. apply in_flat_map in Hin as (l0 & _ & Hl).
  destruct l0 as [id|op args]; cbn in Hl; [contradiction|]. destruct Hl as [<-|[]].
  exists op, (map (res_operand A p) args). split; [reflexivity|].
  intros o Ho. apply in_map_iff in Ho as (o0 & <- & _). apply res_operand_no_label.
Qed.

Lemma find_label_bounds : forall (p : program) id k i, find_label p id k = Some i -> k <= i < k + length p.
Proof.
  induction p as [|l r IH]; intros id k i H; [discriminate|].
  destruct l as [id'|op args]; cbn in H |- *.
  - destruct (Nat.eqb id id'); [injection H as <-; lia|]. apply IH in H. lia.
  - apply IH in H. lia.
Qed.
Lemma find_label_ge (p : program) id : forall k i, find_label p id k = Some i -> k <= i.
Proof. intros k i H. apply (find_label_bounds p id k i H). Qed.

Theorem wf_labels_defined (p : program) : wf_labels p = true ->
  forall id, In id (refs p) -> count_defs p id = 1 /\ exists i, find_label p id 0 = Some i.
Proof.
  unfold wf_labels. rewrite forallb_forall. intros H id Hin. specialize (H id Hin).
  apply Nat.eqb_eq in H. split; [exact H|].
  assert (forall (q : program) k, count_defs q id <> 0 -> exists i, find_label q id k = Some i) as K.
  { induction q as [|l r IHq]; intros k Hc; [cbn in Hc; congruence|].
    destruct l as [id'|op args]; cbn in *.
    - destruct (Nat.eqb id id'); [eexists; reflexivity|]. apply IHq. exact Hc.
    - apply IHq. exact Hc. }
  apply K. lia.
Qed.
End P.

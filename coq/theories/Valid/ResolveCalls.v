(* Semantic correctness of label resolution for programs with (non-nested) calls.

   Beyond the fragment of Valid/ResolveSem.v (absolute jumps and branches to labels), the labelled
   program q may contain `jal <label>` and `j ra`, provided the return-address register ra is used by
   nothing else (no operand of any other instruction names ra: leaf subroutines, which need not save it).
   The two programs then go through the same states up to the renumbering of the pc AND of the
   return address held in ra.  The simulation is that of Valid/ResolveSim.v; what is proved here is
   what is about ra, after the facts about Machine.upd (any list) that it takes. *)
From Coq Require Import List ZArith Bool Arith Lia.
From PV Require Import IC10.Values IC10.Machine Valid.Resolve Valid.ResolveProofs Valid.ResolveSim.
Import ListNotations.

Lemma upd_length {X} (l : list X) n x : length (upd l n x) = length l.
Proof. revert n. induction l as [|y r IH]; intros [|n]; cbn; try reflexivity. rewrite IH. reflexivity. Qed.
Lemma nth_upd_same {X} (l : list X) n x : n < length l -> nth_error (upd l n x) n = Some x.
Proof.
  revert n. induction l as [|y r IH]; intros n H; [cbn in H; lia|].
  destruct n as [|n]; cbn; [reflexivity|]. apply IH. cbn in H. lia.
Qed.
Lemma nth_upd_other {X} (l : list X) n m x : n <> m -> nth_error (upd l n x) m = nth_error l m.
Proof.
  revert n m. induction l as [|y r IH]; intros n m H; [destruct n; reflexivity|].
  destruct n as [|n], m as [|m]; cbn; try reflexivity; [lia|]. apply IH. lia.
Qed.
Lemma upd_upd_same {X} (l : list X) n x y : upd (upd l n x) n y = upd l n y.
Proof. revert n. induction l as [|z r IH]; intros [|n]; cbn; try reflexivity. rewrite IH. reflexivity. Qed.
Lemma upd_comm {X} (l : list X) n m x y : n <> m -> upd (upd l n x) m y = upd (upd l m y) n x.
Proof.
  revert n m. induction l as [|z r IH]; intros n m H; [destruct n, m; reflexivity|].
  destruct n as [|n], m as [|m]; cbn; try reflexivity; [lia|]. rewrite IH by lia. reflexivity.
Qed.
Lemma upd_none {X} (l : list X) n x : nth_error l n = None -> upd l n x = l.
Proof.
  revert n. induction l as [|y r IH]; intros [|n] H; cbn in *; try reflexivity; try discriminate.
  rewrite IH by exact H. reflexivity.
Qed.

Section S.
Context {val : Type}.
Variable A : valg val.
Variable O : @oracle val.
Notation line := (@line val).
Notation operand := (@operand val).
Notation program := (list line).
Notation state := (@state val).

Variable q : program.
Let p' := resolve A q.
Notation ib := (instrs_before q).

Hypothesis Hnat : forall n, n <= length q -> v_to_Z A (of_nat A n) = Some (Z.of_nat n).

Definition plain (o : operand) : bool :=
  match o with OLbl _ | OName _ => false | OReg n => negb (Nat.eqb n RA) | _ => true end.
Definition defd (id : nat) : bool := match find_label q id 0 with Some _ => true | None => false end.

Definition okop (op : opcode) (args : list operand) : bool :=
  match op, args with
  | IJ, [OLbl id] => defd id
  | IJ, [OReg n] => Nat.eqb n RA
  | IJal, [OLbl id] => defd id
  | IBr _ false false, [x; y; OLbl id] => plain x && plain y && defd id
  | IBrz _ false false, [x; OLbl id] => plain x && defd id
  | IBnan false, [x; OLbl id] => plain x && defd id
  | IBdse false false, [x; OLbl id] => plain x && defd id
  | IBdns false false, [x; OLbl id] => plain x && defd id
  | IJ, _ | IJal, _ | IJr, _ | IBr _ _ _, _ | IBrz _ _ _, _ | IBnan _, _ | IBdse _ _, _ | IBdns _ _, _ => false
  | _, _ => forallb plain args
  end.
Definition okline (l : line) : bool := match l with LLabel _ => true | LInstr op args => okop op args end.
Definition frag : bool := forallb okline q.

Definition ra_map (v : val) : val :=
  match v_to_Z A v with
  | Some z => if (0 <=? z)%Z then of_nat A (ib (Z.to_nat z)) else v
  | None => v
  end.
Definition map_regs (rs : list val) : list val :=
  match nth_error rs RA with Some v => upd rs RA (ra_map v) | None => rs end.
Definition T (s : state) : state :=
  {| regs := map_regs (regs s); mem := mem s; pc := ib (pc s); hist := hist s; names := names s; st := st s |}.

Lemma map_regs_other rs n : n <> RA -> nth_error (map_regs rs) n = nth_error rs n.
Proof.
  intros H. unfold map_regs. destruct (nth_error rs RA); [|reflexivity]. apply nth_upd_other. lia.
Qed.
Lemma map_regs_upd_other rs n x : n <> RA -> map_regs (upd rs n x) = upd (map_regs rs) n x.
Proof.
  intros H. unfold map_regs. rewrite nth_upd_other by exact H.
  destruct (nth_error rs RA); [|reflexivity]. apply upd_comm. exact H.
Qed.
Lemma map_regs_upd_ra rs v : map_regs (upd rs RA v) = upd (map_regs rs) RA (ra_map v).
Proof.
  unfold map_regs. destruct (nth_error rs RA) as [w|] eqn:E.
  - rewrite nth_upd_same by (apply nth_error_Some; congruence). rewrite !upd_upd_same. reflexivity.
  - rewrite (upd_none rs RA v E). rewrite E. rewrite (upd_none rs RA _ E). reflexivity.
Qed.

Lemma ra_map_line n : n <= length q -> ra_map (of_nat A n) = of_nat A (ib n).
Proof.
  intros H. unfold ra_map. rewrite (Hnat n H), (proj2 (Z.leb_le 0 _) (Nat2Z.is_nonneg n)), Nat2Z.id. reflexivity.
Qed.

Lemma T_fail s c : T (fail s c) = fail (T s) c. Proof. reflexivity. Qed.
Lemma T_halt s : T (halt s) = halt (T s). Proof. reflexivity. Qed.
Lemma T_set_mem s n v : T (set_mem s n v) = set_mem (T s) n v. Proof. reflexivity. Qed.
Lemma T_emit s e : T (emit s e) = emit (T s) e. Proof. reflexivity. Qed.
Lemma T_set_reg s n v : n <> RA -> T (set_reg s n v) = set_reg (T s) n v.
Proof. intros H. unfold T, set_reg. cbn. rewrite (map_regs_upd_other _ _ _ H). reflexivity. Qed.

(* T is the state map of Valid/ResolveSim.v for map_regs, which leaves every register but ra alone *)
Lemma plain_fixes : fixes plain map_regs.
Proof.
  assert (forall n, plain (OReg n) = true -> n <> RA) as K
    by (intros n H; apply Nat.eqb_neq, negb_true_iff, H).
  split; try reflexivity; intros rs n.
  - intros H. apply map_regs_other, K, H.
  - intros x H. apply map_regs_upd_other, K, H.
Qed.

(* the call: jal to a defined label leaves the renumbered return address in ra *)
Lemma call_T s op args id : nth_error q (pc s) = Some (LInstr op args) -> defd id = true ->
  branch A (T s) true (oval A p' (T s) (res_operand A q (OLbl id))) false true =
  T (branch A s true (oval A q s (OLbl id)) false true).
Proof.
  intros Hat Hd. unfold p'. change T with (Tg q map_regs).
  destruct (target_Tg A q map_regs s id Hd) as (i & Hi & -> & ->). cbn [branch].
  rewrite !(jump_abs_line A q Hnat) by (exact Hi || apply ib_le_len).
  assert (pc s < length q) as Hp by (apply nth_error_Some; congruence).
  unfold Tg, set_pc, set_reg. cbn [regs mem pc hist names st].
  rewrite map_regs_upd_ra, (ra_map_line (S (pc s))), (ib_next q s Hat) by lia. reflexivity.
Qed.

(* the return `j ra` goes to the renumbered address: ra_map of what ra holds *)
Lemma return_T s :
  branch A (T s) true (oval A p' (T s) (OReg RA)) false false = T (branch A s true (oval A q s (OReg RA)) false false).
Proof.
  unfold oval. cbn [Machine.resolve T regs]. unfold map_regs.
  destruct (nth_error (regs s) RA) as [v|] eqn:E; [|rewrite E; reflexivity].
  rewrite nth_upd_same by (apply nth_error_Some; congruence). cbn [branch]. unfold ra_map, jump_abs at 2 (* the labelled side *).
  destruct (v_to_Z A v) as [z|] eqn:Ez; [destruct (0 <=? z)%Z eqn:Ep|].
  - rewrite (jump_abs_line A q Hnat) by apply ib_le_len. reflexivity.
  - unfold jump_abs. rewrite Ez, Ep. reflexivity.
  - unfold jump_abs. rewrite Ez. reflexivity.
Qed.

Lemma frag_sim : frag = true -> forall s op args, nth_error q (pc s) = Some (LInstr op args) ->
  exec A O p' (T s) op (map (res_operand A q) args) = T (exec A O q s op args).
Proof.
  intros F s op args Hat. unfold frag in F. rewrite forallb_forall in F.
  pose proof (F _ (nth_error_In _ _ Hat)) as Hok.
  (* on the branch opcodes okop is ResolveSim.okbranch clause for clause, on the others forallb plain *)
  destruct op; cbn [okline okop] in Hok;
    try (apply (exec_plain A O q plain_fixes s Hat); [reflexivity|exact Hok]);
    try (apply (exec_branch A O q Hnat plain_fixes s Hat); exact Hok).
  - (* IJ *) destruct args as [|[n| | |id| |] [|]]; try discriminate Hok.
    + apply Nat.eqb_eq in Hok as ->. exact (return_T s).
    + apply (exec_branch A O q Hnat plain_fixes s Hat). exact Hok.
  - (* IJal *) destruct args as [|[| | |id| |] [|]]; try discriminate Hok. exact (call_T s _ _ id Hat Hok).
Qed.

Lemma map_regs_init : map_regs (repeat (zero A) 18) = repeat (zero A) 18.
Proof.
  unfold map_regs. cbn [repeat nth_error RA]. change (zero A) with (of_nat A 0).
  rewrite ra_map_line, ib_0 by lia. reflexivity.
Qed.

(* same effects, status and memory; the registers agree except that ra holds the renumbered return
   address; the pc is renumbered *)
Theorem resolve_preserves_behaviour_with_calls : frag = true -> forall fuel, exists fuel', (fuel' <= fuel) /\
  let a := run A O q fuel (init_state A) in
  let b := run A O p' fuel' (init_state A) in
  hist b = hist a /\ st b = st a /\ mem b = mem a /\ regs b = map_regs (regs a) /\ pc b = ib (pc a).
Proof.
  intros F fuel. destruct (run_sim A O q map_regs (frag_sim F) fuel (init_state A)) as (f' & Hle & H).
  exists f'. split; [exact Hle|]. unfold p'. rewrite (Tg_init A q map_regs map_regs_init) in H. rewrite <- H.
  repeat split; reflexivity.
Qed.

(* the converse: every run of the label-free program is matched by a run of the labelled one *)
Theorem resolve_behaviour_with_calls_converse : frag = true -> forall fuel', exists fuel,
  let a := run A O q fuel (init_state A) in
  let b := run A O p' fuel' (init_state A) in
  hist b = hist a /\ st b = st a /\ mem b = mem a /\ regs b = map_regs (regs a) /\ pc b = ib (pc a).
Proof.
  intros F fuel'. destruct (run_sim_converse A O q map_regs (frag_sim F) fuel' (init_state A)) as (f & H).
  exists f. unfold p'. rewrite (Tg_init A q map_regs map_regs_init) in H. rewrite <- H. repeat split; reflexivity.
Qed.

End S.

From Coq Require Import PrimFloat.
From PV Require Import IC10.FloatAlg IC10.FloatFacts.

Theorem resolve_preserves_behaviour_with_calls_float (O : @oracle float) (q : list (@line float)) :
  length q <= 4096 -> frag q = true -> forall fuel, exists fuel', (fuel' <= fuel) /\
  let a := run FloatAlg O q fuel (init_state FloatAlg) in
  let b := run FloatAlg O (resolve FloatAlg q) fuel' (init_state FloatAlg) in
  hist b = hist a /\ st b = st a /\ mem b = mem a /\ regs b = map_regs FloatAlg q (regs a) /\ pc b = instrs_before q (pc a).
Proof.
  intros Hlen. apply resolve_preserves_behaviour_with_calls. exact (float_line_numbers _ Hlen).
Qed.

Theorem resolve_behaviour_with_calls_converse_float (O : @oracle float) (q : list (@line float)) :
  length q <= 4096 -> frag q = true -> forall fuel', exists fuel,
  let a := run FloatAlg O q fuel (init_state FloatAlg) in
  let b := run FloatAlg O (resolve FloatAlg q) fuel' (init_state FloatAlg) in
  hist b = hist a /\ st b = st a /\ mem b = mem a /\ regs b = map_regs FloatAlg q (regs a) /\ pc b = instrs_before q (pc a).
Proof.
  intros Hlen. apply resolve_behaviour_with_calls_converse. exact (float_line_numbers _ Hlen).
Qed.

(* a main loop calling a leaf subroutine twice *)
Example frag_calls_example :
  let q : list (@line float) :=
    [LLabel 1;
     LInstr IMove [OReg 0; OImm 3%float];
     LInstr IJal [OLbl 7];
     LInstr IMove [OReg 0; OImm 5%float];
     LInstr IJal [OLbl 7];
     LInstr IYield [];
     LInstr IJ [OLbl 1];
     LLabel 7;
     LInstr (IBin Bmul) [OReg 1; OReg 0; OImm 2%float];
     LInstr IS [ODev 6; OImm 12%float; OReg 1];
     LInstr IJ [OReg 17]] in
  frag q = true /\
  resolve FloatAlg q =
    [LInstr IMove [OReg 0; OImm 3%float];
     LInstr IJal [OImm 6%float];
     LInstr IMove [OReg 0; OImm 5%float];
     LInstr IJal [OImm 6%float];
     LInstr IYield [];
     LInstr IJ [OImm 0%float];
     LInstr (IBin Bmul) [OReg 1; OReg 0; OImm 2%float];
     LInstr IS [ODev 6; OImm 12%float; OReg 1];
     LInstr IJ [OReg 17]].
Proof. split; vm_compute; reflexivity. Qed.

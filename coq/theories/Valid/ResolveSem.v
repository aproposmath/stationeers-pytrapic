(* Semantic correctness of label resolution for the call-free fragment.

   For a labelled program q in which
     - labels are used only as the target of absolute, non-linking jumps and branches
       (j, b<cmp>, b<cmp>z, bnan, bdse, bdns), every such target being a defined label,
     - there is no jal / jr / relative or linking branch, and
     - operands are registers, numbers and devices (no alias / define names),
   the label-free program  resolve q  (label lines dropped, every label replaced by the index of the
   next instruction) goes through exactly the same states, line for line: after any number of steps
   of q there is a run of resolve q with the same registers, memory, effect history and status,
   whose pc is the number of instruction lines before q's pc.

   The simulation is that of Valid/ResolveSim.v with the registers left alone.  Leaf calls are the
   subject of Valid/ResolveCalls.v; with nested calls return addresses reach the stack and may flow
   through arithmetic, and only the per-compile checks of C05 apply. *)
From Coq Require Import List ZArith Lia.
From PV Require Import IC10.Values IC10.Machine Valid.Resolve Valid.ResolveSim.
Import ListNotations.

Section S.
Context {val : Type}.
Variable A : valg val.
Variable O : @oracle val.
Notation line := (@line val).
Notation operand := (@operand val).
Notation program := (list line).
Notation state := (@state val).

Variable q : program.
Let p' := resolve A q.
Notation ib := (instrs_before q).

(* line numbers of q are exactly representable (true of binary64 for every program the chip can hold) *)
Hypothesis Hnat : forall n, n <= length q -> v_to_Z A (of_nat A n) = Some (Z.of_nat n).

Definition plain (o : operand) : bool := match o with OLbl _ | OName _ => false | _ => true end.
Definition defd (id : nat) : bool := match find_label q id 0 with Some _ => true | None => false end.

Definition okop (op : opcode) (args : list operand) : bool :=
  match op, args with
  | IJ, [OLbl id] => defd id
  | IBr _ false false, [x; y; OLbl id] => plain x && plain y && defd id
  | IBrz _ false false, [x; OLbl id] => plain x && defd id
  | IBnan false, [x; OLbl id] => plain x && defd id
  | IBdse false false, [x; OLbl id] => plain x && defd id
  | IBdns false false, [x; OLbl id] => plain x && defd id
  | IJ, _ | IJal, _ | IJr, _ | IBr _ _ _, _ | IBrz _ _ _, _ | IBnan _, _ | IBdse _ _, _ | IBdns _ _, _ => false
  | _, _ => forallb plain args
  end.
Definition okline (l : line) : bool := match l with LLabel _ => true | LInstr op args => okop op args end.
Definition frag : bool := forallb okline q.

Definition T (s : state) : state := set_pc s (ib (pc s)).

Lemma T_fail s c : T (fail s c) = fail (T s) c. Proof. reflexivity. Qed.
Lemma T_halt s : T (halt s) = halt (T s). Proof. reflexivity. Qed.
Lemma T_set_reg s n v : T (set_reg s n v) = set_reg (T s) n v. Proof. reflexivity. Qed.
Lemma T_set_mem s n v : T (set_mem s n v) = set_mem (T s) n v. Proof. reflexivity. Qed.
Lemma T_emit s e : T (emit s e) = emit (T s) e. Proof. reflexivity. Qed.

(* T is the state map of Valid/ResolveSim.v with the registers left alone *)
Lemma plain_fixes : fixes plain (fun rs => rs).
Proof. split; reflexivity. Qed.

Lemma ovals_plain (P1 P2 : program) s : forall os, forallb plain os = true -> ovals A P1 (T s) os = ovals A P2 s os.
Proof.
  induction os as [|o r IH]; intros H; [reflexivity|]. cbn in H. apply andb_prop in H as [Ho Hr].
  cbn [ovals]. rewrite (IH Hr). change T with (Tg q (fun rs => rs)).
  rewrite (oval_plain A q plain_fixes P1 P2 s o Ho). reflexivity.
Qed.
Lemma map_res_plain : forall os, forallb plain os = true -> map (res_operand A q) os = os.
Proof. exact (ResolveSim.map_res_plain A q plain_fixes). Qed.

Lemma frag_sim : frag = true -> forall s op args, nth_error q (pc s) = Some (LInstr op args) ->
  exec A O p' (T s) op (map (res_operand A q) args) = T (exec A O q s op args).
Proof.
  intros F s op args Hat. unfold frag in F. rewrite forallb_forall in F.
  pose proof (F _ (nth_error_In _ _ Hat)) as Hok.
  (* on the branch opcodes okop is ResolveSim.okbranch clause for clause, on the others forallb plain *)
  destruct op; cbn [okline okop] in Hok;
    try (apply (exec_plain A O q plain_fixes s Hat); [reflexivity|exact Hok]);
    apply (exec_branch A O q Hnat plain_fixes s Hat); exact Hok.
Qed.

(* what the chip and its surroundings can observe is the same *)
Theorem resolve_preserves_behaviour : frag = true -> forall fuel, exists fuel', (fuel' <= fuel) /\
  let a := run A O q fuel (init_state A) in
  let b := run A O p' fuel' (init_state A) in
  hist b = hist a /\ st b = st a /\ regs b = regs a /\ mem b = mem a /\ pc b = ib (pc a).
Proof.
  intros F fuel. destruct (run_sim A O q (fun rs => rs) (frag_sim F) fuel (init_state A)) as (f' & Hle & H).
  exists f'. split; [exact Hle|]. unfold p'. rewrite (Tg_init A q (fun rs => rs) eq_refl) in H. rewrite <- H.
  repeat split; reflexivity.
Qed.

(* the converse: every run of the label-free program is matched by a run of the labelled one (which
   needs the extra steps over its label lines) *)
Theorem resolve_behaviour_converse : frag = true -> forall fuel', exists fuel,
  let a := run A O q fuel (init_state A) in
  let b := run A O p' fuel' (init_state A) in
  hist b = hist a /\ st b = st a /\ regs b = regs a /\ mem b = mem a /\ pc b = ib (pc a).
Proof.
  intros F fuel'. destruct (run_sim_converse A O q (fun rs => rs) (frag_sim F) fuel' (init_state A)) as (f & H).
  exists f. unfold p'. rewrite (Tg_init A q (fun rs => rs) eq_refl) in H. rewrite <- H. repeat split; reflexivity.
Qed.

End S.

From Coq Require Import PrimFloat.
From PV Require Import IC10.FloatAlg IC10.FloatFacts.

Theorem resolve_preserves_behaviour_float (O : @oracle float) (q : list (@line float)) :
  length q <= 4096 -> frag q = true -> forall fuel, exists fuel', (fuel' <= fuel) /\
  let a := run FloatAlg O q fuel (init_state FloatAlg) in
  let b := run FloatAlg O (resolve FloatAlg q) fuel' (init_state FloatAlg) in
  hist b = hist a /\ st b = st a /\ regs b = regs a /\ mem b = mem a /\ pc b = instrs_before q (pc a).
Proof.
  intros Hlen. apply resolve_preserves_behaviour. exact (float_line_numbers _ Hlen).
Qed.

Theorem resolve_behaviour_converse_float (O : @oracle float) (q : list (@line float)) :
  length q <= 4096 -> frag q = true -> forall fuel', exists fuel,
  let a := run FloatAlg O q fuel (init_state FloatAlg) in
  let b := run FloatAlg O (resolve FloatAlg q) fuel' (init_state FloatAlg) in
  hist b = hist a /\ st b = st a /\ regs b = regs a /\ mem b = mem a /\ pc b = instrs_before q (pc a).
Proof.
  intros Hlen. apply resolve_behaviour_converse. exact (float_line_numbers _ Hlen).
Qed.

(* the hypotheses are satisfiable: a loop with a conditional exit, labels as targets only *)
Example frag_example :
  let q : list (@line float) :=
    [LInstr IMove [OReg 0; OImm 0%float];
     LLabel 1;
     LInstr (IBr Cge false false) [OReg 0; OImm 3%float; OLbl 2];
     LInstr IS [ODev 6; OImm 12%float; OReg 0];
     LInstr (IBin Badd) [OReg 0; OReg 0; OImm 1%float];
     LInstr IJ [OLbl 1];
     LLabel 2;
     LInstr IYield []] in
  frag q = true /\ length q <= 4096 /\
  resolve FloatAlg q =
    [LInstr IMove [OReg 0; OImm 0%float];
     LInstr (IBr Cge false false) [OReg 0; OImm 3%float; OImm 5%float];
     LInstr IS [ODev 6; OImm 12%float; OReg 0];
     LInstr (IBin Badd) [OReg 0; OReg 0; OImm 1%float];
     LInstr IJ [OImm 1%float];
     LInstr IYield []].
Proof. split; [vm_compute; reflexivity|]. split; [cbn; lia|]. vm_compute. reflexivity. Qed.

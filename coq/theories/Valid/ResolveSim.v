(* Label resolution as a simulation, once for every fragment.

   A state s of the labelled program q is matched with the state  Tg s  of  resolve q : the pc is
   renumbered (instrs_before) and the registers go through a map `rmap` that leaves alone every
   register a `plain` operand can name.  Then
     - an instruction that is no jump and has plain operands only does the same in both programs
       (exec_plain), and so does an absolute, non-linking branch to a defined label (exec_branch);
     - if every instruction of q commutes with Tg in this way, every run of q is a run of resolve q
       with the label lines left out, and conversely (run_sim, run_sim_converse).
   Valid/ResolveSem.v (rmap = identity) and Valid/ResolveCalls.v (rmap renumbers the return address
   in ra, which is then not plain) are the two instances. *)
From Coq Require Import List ZArith Arith Lia.
From PV Require Import IC10.Values IC10.Machine IC10.MachineProofs Valid.Resolve Valid.ResolveProofs.
Import ListNotations.

Section Sim.
Context {val : Type}.
Variable A : valg val.
Variable O : @oracle val.
Notation operand := (@operand val).
Notation state := (@state val).

Variable q : list (@line val).
Notation p' := (resolve A q).
Notation ib := (instrs_before q).
Notation res := (res_operand A q).

(* line numbers of q are exactly representable (true of binary64 for every program the chip can hold) *)
Hypothesis Hnat : forall n, n <= length q -> v_to_Z A (of_nat A n) = Some (Z.of_nat n).

Lemma jump_abs_line s n link : n <= length q ->
  jump_abs A s (of_nat A n) link = set_pc (if link then set_reg s RA (of_nat A (S (pc s))) else s) n.
Proof.
  intros H. unfold jump_abs. rewrite (Hnat n H), (proj2 (Z.leb_le 0 _) (Nat2Z.is_nonneg n)), Nat2Z.id.
  reflexivity.
Qed.

Variable plain : operand -> bool.
Variable rmap : list val -> list val.

(* What the simulation needs of `plain` and `rmap`.  A label evaluates to a line number and a name can
   be bound to anything, so neither can be plain; sp is read and written by push, pop and peek, whatever
   their operands. *)
Record fixes : Prop := {
  plain_lbl : forall id, plain (OLbl id) = false;
  plain_name : forall id, plain (OName id) = false;
  plain_sp : plain (OReg SP) = true;
  rmap_nth : forall rs n, plain (OReg n) = true -> nth_error (rmap rs) n = nth_error rs n;
  rmap_upd : forall rs n x, plain (OReg n) = true -> rmap (upd rs n x) = upd (rmap rs) n x }.
Hypothesis HP : fixes.

Definition Tg (s : state) : state :=
  {| regs := rmap (regs s); mem := mem s; pc := ib (pc s); hist := hist s; names := names s; st := st s |}.

Lemma Tg_init : rmap (repeat (zero A) 18) = repeat (zero A) 18 -> Tg (init_state A) = init_state A.
Proof. intros H. unfold Tg, init_state. cbn [regs mem pc hist names st]. rewrite H, ib_0. reflexivity. Qed.

Lemma Tg_set_reg s n v : plain (OReg n) = true -> Tg (set_reg s n v) = set_reg (Tg s) n v.
Proof. intros H. unfold Tg, set_reg. cbn [regs mem pc hist names st]. rewrite (rmap_upd HP _ _ _ H). reflexivity. Qed.

Lemma res_plain o : plain o = true -> res o = o.
Proof. destruct o; try reflexivity. rewrite (plain_lbl HP). discriminate. Qed.
Lemma map_res_plain : forall os, forallb plain os = true -> map res os = os.
Proof.
  induction os as [|o r IH]; intros H; [reflexivity|]. cbn in H. apply andb_prop in H as [Ho Hr].
  cbn [map]. rewrite (res_plain o Ho), (IH Hr). reflexivity.
Qed.
(* a plain operand is evaluated without a look at the program *)
Lemma oval_plain (P1 P2 : list (@line val)) s o : plain o = true -> oval A P1 (Tg s) o = oval A P2 s o.
Proof.
  destruct o; try reflexivity; intros H.
  - exact (rmap_nth HP _ _ H).
  - rewrite (plain_lbl HP) in H. discriminate H.
  - rewrite (plain_name HP) in H. discriminate H.
Qed.
Lemma odev_plain s o : plain o = true -> odev A (Tg s) o = odev A s o.
Proof.
  destruct o; try reflexivity; intros H.
  - unfold odev. cbn [Machine.resolve Tg regs]. rewrite (rmap_nth HP _ _ H). reflexivity.
  - rewrite (plain_name HP) in H. discriminate H.
Qed.
Lemma sp_val_Tg s : sp_val A (Tg s) = sp_val A s.
Proof. unfold sp_val. cbn [Tg regs]. rewrite (rmap_nth HP _ _ (plain_sp HP)). reflexivity. Qed.

(* the opcodes that can set the pc to something else than the next line; hcf only halts and is covered by
   exec_plain *)
Definition jumps (op : opcode) : bool :=
  match op with
  | IJ | IJal | IJr | IBr _ _ _ | IBrz _ _ _ | IBnan _ | IBdse _ _ | IBdns _ _ => true
  | _ => false
  end.

(* the absolute, non-linking branches, with a defined label for a target and nowhere else *)
Definition defd (id : nat) : bool := match find_label q id 0 with Some _ => true | None => false end.
Definition okbranch (op : opcode) (args : list operand) : bool :=
  match op, args with
  | IJ, [OLbl id] => defd id
  | IBr _ false false, [x; y; OLbl id] => plain x && plain y && defd id
  | IBrz _ false false, [x; OLbl id] => plain x && defd id
  | IBnan false, [x; OLbl id] => plain x && defd id
  | IBdse false false, [x; OLbl id] => plain x && defd id
  | IBdns false false, [x; OLbl id] => plain x && defd id
  | _, _ => false
  end.

(* The machine stands at an instruction line (which one does not matter: op0 and args0 only serve to
   say so); then the next line is renumbered to the next line. *)
Section AtInstr.
Variable s : state.
Variables (op0 : opcode) (args0 : list operand).
Hypothesis Hat : nth_error q (pc s) = Some (LInstr op0 args0).

Lemma ib_next : ib (S (pc s)) = S (ib (pc s)).
Proof. rewrite ib_S, Hat. reflexivity. Qed.

(* s0: s after writes that leave the pc alone *)
Lemma Tg_next s0 : pc s0 = pc s -> Tg (next s0) = next (Tg s0).
Proof. intros E. unfold Tg, next, set_pc. cbn [regs mem pc hist names st]. rewrite E, ib_next. reflexivity. Qed.

Lemma wr_Tg s0 d v : pc s0 = pc s -> plain d = true -> wr (Tg s0) d v = Tg (wr s0 d v).
Proof.
  intros E Hd. unfold wr. change (oreg (Tg s0) d) with (oreg s0 d).
  destruct (oreg s0 d) as [n|] eqn:En; [|reflexivity]. destruct v as [x|]; [|reflexivity].
  assert (plain (OReg n) = true) as Hn.
  { destruct d; try discriminate En; [|rewrite (plain_name HP) in Hd; discriminate Hd].
    unfold oreg in En. cbn [Machine.resolve] in En. destruct (n0 <? 18); [|discriminate En]. injection En as <-. exact Hd. }
  rewrite <- (Tg_set_reg _ _ _ Hn). symmetry. apply Tg_next. exact E.
Qed.
Lemma effect_Tg k a : effect (Tg s) k a = Tg (effect s k a).
Proof. destruct a; [|reflexivity]. symmetry. exact (Tg_next (emit s _) eq_refl). Qed.

Lemma exec_plain op args : jumps op = false -> forallb plain args = true ->
  exec A O p' (Tg s) op (map res args) = Tg (exec A O q s op args).
Proof.
  intros Hj Hp. rewrite (map_res_plain _ Hp).
  (* A wrong operand count fails alike in both programs.  Plain operands evaluate alike, and then most
     instructions end in a register write or an effect; the six that touch the stack memory follow. *)
  destruct op; try discriminate Hj;
    destruct args as [|a1 [|a2 [|a3 [|a4 [|a5 [|a6 [|a7 r]]]]]]]; try reflexivity;
    cbn [forallb] in Hp; repeat (apply andb_prop in Hp as [? Hp]); cbn [exec ovals];
    rewrite ?(oval_plain p' q), ?odev_plain, ?sp_val_Tg by assumption;
    try (apply wr_Tg; [reflexivity|assumption]); try apply effect_Tg.
  (* alias, define: the name to bind is not a plain operand *)
  all: try (destruct a1; try reflexivity; rewrite (plain_name HP) in *; discriminate).
  - (* IGet *) change (is_db (Tg s) a2) with (is_db s a2). destruct (is_db s a2); apply wr_Tg; trivial.
  - (* IPut *) change (is_db (Tg s) a1) with (is_db s a1). destruct (is_db s a1); [|apply effect_Tg].
    destruct (oval A q s a2), (oval A q s a3); try reflexivity. destruct (addr_of A v); [|reflexivity].
    rewrite Tg_next by reflexivity. reflexivity.
  - (* IPush *) destruct (oval A q s a1), (sp_val A s); try reflexivity. destruct (addr_of A _); [|reflexivity].
    rewrite Tg_next by reflexivity. rewrite (Tg_set_reg _ _ _ (plain_sp HP)). reflexivity.
  - (* IPop *) destruct (sp_val A s); [|reflexivity]. destruct (addr_of A _); [|reflexivity].
    rewrite <- (Tg_set_reg s _ _ (plain_sp HP)). apply wr_Tg; trivial.
  - (* IPeek *) destruct (sp_val A s); [|reflexivity]. destruct (addr_of A _); [|reflexivity]. apply wr_Tg; trivial.
  - (* IPoke *) destruct (oval A q s a1), (oval A q s a2); try reflexivity. destruct (addr_of A v); [|reflexivity].
    rewrite Tg_next by reflexivity. reflexivity.
Qed.

Lemma target_Tg id : defd id = true -> exists i, i <= length q /\
  oval A p' (Tg s) (res (OLbl id)) = Some (of_nat A (ib i)) /\ oval A q s (OLbl id) = Some (of_nat A i).
Proof.
  unfold defd. cbn [res_operand]. unfold label_target, oval. cbn [Machine.resolve].
  destruct (find_label q id 0) as [i|] eqn:E; [intros _|discriminate].
  exists i. apply find_label_bounds in E. repeat split. lia.
Qed.

Lemma branch_Tg c id : defd id = true ->
  branch A (Tg s) c (oval A p' (Tg s) (res (OLbl id))) false false =
  Tg (branch A s c (oval A q s (OLbl id)) false false).
Proof.
  intros Hd. destruct (target_Tg id Hd) as (i & Hi & -> & ->). cbn [branch].
  destruct c; [|symmetry; exact (Tg_next s eq_refl)].
  rewrite !jump_abs_line by (exact Hi || apply ib_le_len). reflexivity.
Qed.

(* the test g of a conditional branch is evaluated first, and is the same in both programs *)
Lemma guard_Tg {X} (g : option X) (c : X -> bool) id : defd id = true ->
  match g with
  | Some u => branch A (Tg s) (c u) (oval A p' (Tg s) (res (OLbl id))) false false
  | None => fail (Tg s) 1
  end =
  Tg match g with Some u => branch A s (c u) (oval A q s (OLbl id)) false false | None => fail s 1 end.
Proof. intros Hd. destruct g; [exact (branch_Tg _ id Hd)|reflexivity]. Qed.

Lemma exec_branch op args : okbranch op args = true ->
  exec A O p' (Tg s) op (map res args) = Tg (exec A O q s op args).
Proof.
  intros Hok. destruct op; try discriminate Hok; try destruct rel; try destruct al; try discriminate Hok.
  (* left, in the order of Machine.opcode: IBr, IBrz, IBnan, IJ, IBdse, IBdns, absolute and non-linking *)
  4: { (* IJ *) destruct args as [|[| | |id| |] [|]]; try discriminate Hok. exact (branch_Tg true id Hok). }
  1: { (* IBr *) destruct args as [|x [|y [|[| | |id| |] [|]]]]; try discriminate Hok.
    apply andb_prop in Hok as [Hxy Hd]. apply andb_prop in Hxy as [Hx Hy]. cbn [map exec].
    rewrite (res_plain x Hx), (res_plain y Hy), (oval_plain p' q s x Hx), (oval_plain p' q s y Hy).
    destruct (oval A q s x); [|reflexivity]. exact (guard_Tg _ _ id Hd). }
  (* IBrz, IBnan, IBdse, IBdns: one plain operand, a value or a device, and the label *)
  all: destruct args as [|x [|[| | |id| |] [|]]]; try discriminate Hok; apply andb_prop in Hok as [Hx Hd];
    cbn [map exec]; rewrite (res_plain x Hx), ?(oval_plain p' q s x Hx), ?(odev_plain s x Hx);
    exact (guard_Tg _ _ id Hd).
Qed.
End AtInstr.

Hypothesis Hsim : forall s op args, nth_error q (pc s) = Some (LInstr op args) ->
  exec A O p' (Tg s) op (map res args) = Tg (exec A O q s op args).

(* q is about to step over a label line, which resolve q does not have *)
Definition at_label (s : state) : bool :=
  match st s, nth_error q (pc s) with Running, Some (LLabel _) => true | _, _ => false end.

Lemma step_sim s : Tg (step A O q s) = if at_label s then Tg s else step A O p' (Tg s).
Proof.
  unfold at_label, step. change (st (Tg s)) with (st s). destruct (st s); try reflexivity.
  change (pc (Tg s)) with (ib (pc s)). destruct (nth_error q (pc s)) as [[id|op args]|] eqn:E.
  - unfold Tg, next, set_pc. cbn [regs mem pc hist names st]. rewrite ib_S, E. reflexivity.
  - rewrite nth_resolved, E by (rewrite E; discriminate). symmetry. exact (Hsim s op args E).
  - rewrite nth_resolved, E by (rewrite E; discriminate). reflexivity.
Qed.

Theorem run_sim : forall fuel s, exists fuel', fuel' <= fuel /\ Tg (run A O q fuel s) = run A O p' fuel' (Tg s).
Proof.
  induction fuel as [|k IH]; intros s; [exists 0; split; [lia|reflexivity]|].
  cbn [run]. destruct (st s) eqn:Es; try (exists 0; split; [lia|reflexivity]).
  destruct (IH (step A O q s)) as (f' & Hle & Hr). rewrite step_sim in Hr. destruct (at_label s).
  - exists f'. split; [lia|exact Hr].
  - exists (S f'). split; [lia|]. cbn [run]. change (st (Tg s)) with (st s). rewrite Es. exact Hr.
Qed.

(* the converse: q needs the extra steps over its label lines *)
Lemma at_label_step s : at_label s = true -> st s = Running /\ step A O q s = next s /\ pc s < length q.
Proof.
  unfold at_label, step. destruct (st s); try discriminate.
  destruct (nth_error q (pc s)) as [[id|]|] eqn:E; try discriminate.
  intros _. repeat split. apply nth_error_Some. congruence.
Qed.

Lemma skip_labels : forall n s, length q - pc s < n ->
  exists k, Tg (run A O q k s) = Tg s /\ at_label (run A O q k s) = false.
Proof.
  induction n as [|n IH]; intros s Hn; [lia|].
  destruct (at_label s) eqn:L; [|exists 0; split; [reflexivity|exact L]].
  destruct (at_label_step s L) as (Es & Hst & Hlt).
  destruct (IH (step A O q s)) as (k & H1 & H2); [rewrite Hst; cbn; lia|].
  exists (S k). cbn [run]. rewrite Es. split; [|exact H2]. rewrite H1, step_sim, L. reflexivity.
Qed.

Theorem run_sim_converse : forall fuel' s, exists fuel, Tg (run A O q fuel s) = run A O p' fuel' (Tg s).
Proof.
  induction fuel' as [|k IH]; intros s; [exists 0; reflexivity|].
  cbn [run]. change (st (Tg s)) with (st s). destruct (st s) eqn:Es; try (exists 0; reflexivity).
  destruct (skip_labels _ s (Nat.lt_succ_diag_r _)) as (j & H1 & H2). set (s1 := run A O q j s) in *.
  destruct (IH (step A O q s1)) as (f & Hf). rewrite step_sim, H2, H1 in Hf.
  exists (j + S f). rewrite run_add. fold s1. cbn [run].
  rewrite (f_equal st H1 : st s1 = st s), Es. exact Hf.
Qed.
End Sim.

Arguments ib_next {val} q s {op0 args0} Hat.
Arguments map_res_plain {val} A q {plain rmap} HP os _.
Arguments oval_plain {val} A q {plain rmap} HP P1 P2 s o _.
Arguments exec_plain {val} A O q {plain rmap} HP s {op0 args0} Hat {op args} _ _.
Arguments exec_branch {val} A O q Hnat {plain rmap} HP s {op0 args0} Hat {op args} _.

(* Label resolution on machine programs: drop the label lines and replace every label
   reference by the index, in the label-free program, of the instruction that follows the
   label.  `resolve (parse labelled_text)` is what `parse label_free_text` has to equal. *)
From Coq Require Import List Arith.
From PV Require Import IC10.Values IC10.Machine.
Import ListNotations.

Section R.
Context {val : Type}.
Variable A : valg val.
Notation line := (@line val).
Notation operand := (@operand val).
Notation program := (list line).

Definition is_instr (l : line) : bool := match l with LInstr _ _ => true | LLabel _ => false end.

(* number of instruction lines among the first i lines *)
Fixpoint instrs_before (p : program) (i : nat) : nat :=
  match i, p with
  | O, _ => 0
  | S k, [] => 0
  | S k, l :: r => (if is_instr l then 1 else 0) + instrs_before r k
  end.

Definition label_target (p : program) (id : nat) : option nat :=
  match find_label p id 0 with Some i => Some (instrs_before p i) | None => None end.

Definition res_operand (p : program) (o : operand) : operand :=
  match o with
  | OLbl id => match label_target p id with Some n => OImm (of_nat A n) | None => OBad end
  | _ => o
  end.

Definition res_line (p : program) (l : line) : list line :=
  match l with
  | LLabel _ => []
  | LInstr op args => [LInstr op (map (res_operand p) args)]
  end.

Definition resolve (p : program) : program := flat_map (res_line p) p.

(* the first instruction at or after line i *)
Fixpoint next_instr (p : program) (i : nat) : option line :=
  match p with
  | [] => None
  | l :: r => match i with
              | O => if is_instr l then Some l else next_instr r 0
              | S k => next_instr r k
              end
  end.

(* static conditions on labels *)
Fixpoint count_defs (p : program) (id : nat) : nat :=
  match p with
  | [] => 0
  | LLabel id' :: r => (if Nat.eqb id id' then 1 else 0) + count_defs r id
  | _ :: r => count_defs r id
  end.
Definition operand_labels (o : operand) : list nat := match o with OLbl id => [id] | _ => [] end.
Definition line_refs (l : line) : list nat :=
  match l with LInstr _ args => flat_map operand_labels args | LLabel _ => [] end.
Definition refs (p : program) : list nat := flat_map line_refs p.

(* every referenced label is defined exactly once *)
Definition wf_labels (p : program) : bool := forallb (fun id => Nat.eqb (count_defs p id) 1) (refs p).

End R.

(* decidable comparison of two machine programs (glue check) *)
Definition opcode_eq_dec : forall a b : opcode, {a = b} + {a <> b}.
Proof. repeat decide equality. Defined.

Section Eq.
Context {val : Type}.
Variable A : valg val.
Definition operand_eqb (a b : @operand val) : bool :=
  match a, b with
  | OReg x, OReg y | ODev x, ODev y | OLbl x, OLbl y | OName x, OName y => Nat.eqb x y
  | OImm u, OImm v => v_eqb A u v
  | OBad, OBad => true
  | _, _ => false
  end.
Fixpoint operands_eqb (a b : list (@operand val)) : bool :=
  match a, b with
  | [], [] => true
  | x :: a', y :: b' => operand_eqb x y && operands_eqb a' b'
  | _, _ => false
  end.
Definition line_eqb (a b : @line val) : bool :=
  match a, b with
  | LLabel x, LLabel y => Nat.eqb x y
  | LInstr o1 a1, LInstr o2 a2 => (if opcode_eq_dec o1 o2 then true else false) && operands_eqb a1 a2
  | _, _ => false
  end.
(* index of the first differing line, None if equal *)
Fixpoint prog_diff (a b : list (@line val)) (i : nat) : option nat :=
  match a, b with
  | [], [] => None
  | x :: a', y :: b' => if line_eqb x y then prog_diff a' b' (S i) else Some i
  | _, _ => Some i
  end.
(* is the label-free program the resolution of the labelled one? *)
Definition glue (labelled labelfree : list (@line val)) : option nat :=
  prog_diff (resolve A labelled) labelfree 0.
End Eq.

(* IEEE-754 facts about primitive floats, derived from the axioms of Coq's standard library
   (Floats.FloatAxioms: *_spec relate each primitive operation to its SpecFloat definition): zero and
   negation for the folding theorems (C03), the negated comparisons for the branch selection (C01).
   These standard-library axioms are part of the trusted base.
   The last part (line numbers are exactly representable, for C05) is by evaluation and uses none of them. *)
From Coq Require Import ZArith Lia PrimFloat SpecFloat FloatOps FloatAxioms.
From PV Require Import IC10.Values IC10.FloatAlg.
From PV Require IC10.Machine.

Lemma zero_not_neg f :
  PrimFloat.eqb f PrimFloat.zero = true -> PrimFloat.ltb f PrimFloat.zero = false.
Proof.
  rewrite eqb_spec, ltb_spec. change (Prim2SF zero) with (S754_zero false).
  destruct (Prim2SF f) as [s|s| |s m e]; try destruct s; cbn; congruence.
Qed.

Lemma of_Z_0 : of_Z 0 = PrimFloat.zero. Proof. reflexivity. Qed.

(* -x and 0 - x are the same number: identical except for the sign of a zero result *)
Lemma neg_is_zero_minus x :
  PrimFloat.opp x = PrimFloat.sub (of_Z 0) x \/
  (PrimFloat.eqb (PrimFloat.opp x) PrimFloat.zero = true /\
   PrimFloat.eqb (PrimFloat.sub (of_Z 0) x) PrimFloat.zero = true).
Proof.
  rewrite of_Z_0. destruct (Prim2SF x) as [s|s| |s m e] eqn:E; [right|left..].
  2-4: apply Prim2SF_inj; rewrite opp_spec, sub_spec, E; reflexivity.
  rewrite !eqb_spec, opp_spec, sub_spec, E. destruct s; split; reflexivity.
Qed.

(* on ordered (non-NaN) operands the six relations are the usual ones *)
Lemma SFcompare_ordered a b : a <> S754_nan -> b <> S754_nan -> SFcompare a b <> None.
Proof. intros Ha Hb. destruct a, b; try contradiction; discriminate. Qed.

Lemma SFcompare_antisym a b : SFcompare b a = option_map CompOpp (SFcompare a b).
Proof.
  destruct a as [[]|[]| |[] ma ea], b as [[]|[]| |[] mb eb]; try reflexivity.
  all: cbn; rewrite (Z.compare_antisym ea eb), (ZC4 mb ma);
    destruct (ea ?= eb)%Z; cbn; rewrite ?CompOpp_involutive; reflexivity.
Qed.

Lemma not_nan x : PrimFloat.is_nan x = false -> Prim2SF x <> S754_nan.
Proof. intros H E. unfold PrimFloat.is_nan in H. rewrite eqb_spec, E in H. discriminate. Qed.

Theorem cmp_neg_correct c x y : PrimFloat.is_nan x = false -> PrimFloat.is_nan y = false ->
  fcmp (cmp_neg c) x y = negb (fcmp c x y).
Proof.
  intros Hx Hy. pose proof (SFcompare_ordered _ _ (not_nan x Hx) (not_nan y Hy)) as Hc.
  (* every relation is a test on SFcompare x y, those with swapped operands by antisymmetry *)
  destruct c; cbn [fcmp cmp_neg]; rewrite ?eqb_spec, ?ltb_spec, ?leb_spec; unfold SFeqb, SFltb, SFleb;
    rewrite ?(SFcompare_antisym (Prim2SF x) (Prim2SF y));
    destruct (SFcompare (Prim2SF x) (Prim2SF y)) as [[| |]|]; try reflexivity; contradiction.
Qed.

(* with a NaN operand the law fails: both a comparison and its negation are false *)
Lemma cmp_neg_nan_refuted : exists x y, fcmp (cmp_neg Clt) x y = false /\ fcmp Clt x y = false.
Proof. exists PrimFloat.nan, PrimFloat.zero. split; reflexivity. Qed.

(* Small integers survive the round trip through a double.  This cannot be argued from the definition of
   of_Z without the axiom Prim2SF_SF2Prim, which the theorems of C05 are to stay clear of: it is swept.
   `to_Z_exact` divides the 53-bit mantissa by 2^-e, twice; where the mantissa is z shifted left by -e
   the answer can be read off without dividing.  (The sweep below is re-checked by coqchk without the
   VM, where those divisions are what costs.) *)
Lemma to_Z_exact_shifted f m e z :
  to_ZE f = Some (m, e) -> (e <= 0)%Z -> m = Z.shiftl z (- e) -> to_Z_exact f = Some z.
Proof.
  intros Hf He Hm. unfold to_Z_exact, is_integral, trunc_Z. rewrite Hf, Hm.
  rewrite Z.shiftl_mul_pow2 by lia. destruct (0 <=? e)%Z eqn:E.
  - apply Z.leb_le in E. replace e with 0%Z by lia. rewrite !Z.mul_1_r. reflexivity.
  - assert (2 ^ (- e) <> 0)%Z by (apply Z.pow_nonzero; lia).
    rewrite Z.rem_mul, Z.quot_mul by assumption. reflexivity.
Qed.

Definition exact_int (z : Z) : bool :=
  match to_ZE (of_Z z) with
  | Some (m, e) => (e <=? 0)%Z && Z.eqb m (Z.shiftl z (- e))
  | None => false
  end.

Lemma exact_int_sound z : exact_int z = true -> to_Z_exact (of_Z z) = Some z.
Proof.
  unfold exact_int. destruct (to_ZE (of_Z z)) as [[m e]|] eqn:E; [|discriminate]. intros H.
  apply andb_prop in H as [He Hm]. apply Z.leb_le in He. apply Z.eqb_eq in Hm.
  exact (to_Z_exact_shifted _ m e z E He Hm).
Qed.

(* P on z, z+1, ..., z+k-1; a list of the k numbers made from `seq` would make the kernel count each in unary *)
Fixpoint holds_from (P : Z -> bool) (k : nat) (z : Z) : bool :=
  match k with O => true | S k' => P z && holds_from P k' (z + 1) end.

Lemma holds_from_spec P k : forall z, holds_from P k z = true ->
  forall n, (n < k)%nat -> P (z + Z.of_nat n)%Z = true.
Proof.
  induction k as [|k IH]; intros z H n Hn; [inversion Hn|].
  cbn [holds_from] in H. apply andb_prop in H as [H0 H1]. destruct n as [|n].
  - rewrite Z.add_0_r. exact H0.
  - replace (z + Z.of_nat (S n))%Z with (z + 1 + Z.of_nat n)%Z by lia. apply IH; [exact H1|lia].
Qed.

(* line numbers up to 4096 are exactly representable and read back.  The bound is that of the sweep, far
   above the 128 lines an IC10 chip holds; stated for a program length m, as the semantic theorems of C05
   (`length q <= 4096`) use it. *)
Lemma float_line_numbers m : m <= 4096 ->
  forall n, n <= m -> v_to_Z FloatAlg (Machine.of_nat FloatAlg n) = Some (Z.of_nat n).
Proof.
  assert (holds_from exact_int 4097 0 = true) as H by (vm_compute; reflexivity).
  intros Hm n Hn. apply exact_int_sound. exact (holds_from_spec _ _ _ H n (le_n_S _ _ (Nat.le_trans _ _ _ Hn Hm))).
Qed.

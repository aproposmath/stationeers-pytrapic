(* Basic facts about the machine, for every program, oracle and state: the ways an instruction can
   end (exec_outcome, from which the invariants of C01, C07 and C09 follow by cases); effects are never
   retracted (the history only grows); a halted/failed machine stays put. *)
From Coq Require Import List ZArith Bool.
From PV Require Import IC10.Values IC10.Machine Valid.WfCode Model.Layout.
Import ListNotations.

Section Facts.
Context {val : Type}.
Variable A : valg val.
Notation state := (@state val).

Definition extends (s' s : state) : Prop := exists l, hist s' = l ++ hist s.

Lemma extends_refl s : extends s s. Proof. exists []; reflexivity. Qed.
Lemma extends_trans a b c : extends a b -> extends b c -> extends a c.
Proof. intros [l1 H1] [l2 H2]. exists (l1 ++ l2). rewrite H1, H2, app_assoc. reflexivity. Qed.

Lemma ext_fail s c : extends (fail s c) s. Proof. exists []; reflexivity. Qed.
Lemma ext_next s : extends (next s) s. Proof. exists []; reflexivity. Qed.
Lemma ext_set_pc s n : extends (set_pc s n) s. Proof. exists []; reflexivity. Qed.
Lemma ext_set_reg s n v : extends (set_reg s n v) s. Proof. exists []; reflexivity. Qed.
Lemma ext_set_mem s n v : extends (set_mem s n v) s. Proof. exists []; reflexivity. Qed.
Lemma ext_halt s : extends (halt s) s. Proof. exists []; reflexivity. Qed.
Lemma ext_bind s i o : extends (bind_name s i o) s. Proof. exists []; reflexivity. Qed.
Lemma ext_emit s e : extends (emit s e) s. Proof. exists [e]; reflexivity. Qed.

Lemma ext_wr s o v : extends (wr s o v) s.
Proof. unfold wr. destruct (oreg s o), v; exists []; reflexivity. Qed.

Lemma ext_branch s c t r a : extends (branch A s c t r a) s.
Proof.
  unfold branch, jump_rel, jump_abs. destruct t as [v|], c, r; try destruct (v_to_Z A v);
    try destruct (0 <=? _)%Z; try destruct a; exists []; reflexivity.
Qed.
Lemma ext_effect s k a : extends (effect s k a) s.
Proof. destruct a as [l|]; [exists [Ev k l]|exists []]; reflexivity. Qed.

(* writes that leave the program counter and the status alone *)
Inductive quiet (s : state) : state -> Prop :=
| q_refl : quiet s s
| q_reg s0 n v : quiet s s0 -> quiet s (set_reg s0 n v)
| q_mem s0 n v : quiet s s0 -> quiet s (set_mem s0 n v)
| q_emit s0 e : quiet s s0 -> quiet s (emit s0 e)
| q_bind s0 i o : quiet s s0 -> quiet s (bind_name s0 i o).
Local Hint Constructors quiet : core.

Lemma quiet_same s s0 : quiet s s0 -> pc s0 = pc s /\ st s0 = st s.
Proof. induction 1; auto. Qed.
Lemma quiet_extends s s0 : quiet s s0 -> extends s0 s.
Proof. induction 1; eauto using extends_refl, extends_trans, ext_set_reg, ext_set_mem, ext_emit, ext_bind. Qed.

(* Every instruction makes quiet writes and then does one of four things: it fails in place, goes to the
   next line, jumps, or halts.  With what the static conditions of Valid/WfCode.v and Model/Layout.v say:
   the error codes 4 and 5 need an ill-formed instruction, a jump or a halt needs a control opcode. *)
Inductive outcome (s : state) (op : opcode) (args : list (@operand val)) : state -> Prop :=
| out_err s0 c : quiet s s0 -> c <= 3 -> outcome s op args (fail s0 c)
| out_shape c : wf_instr op args = false -> outcome s op args (fail s c)
| out_next s0 : quiet s s0 -> outcome s op args (next s0)
| out_jump s0 n : quiet s s0 -> is_control op = true -> outcome s op args (set_pc s0 n)
| out_halt s0 : quiet s s0 -> is_control op = true -> outcome s op args (halt s0).

Lemma wr_outcome s op args s0 d v : quiet s s0 -> outcome s op args (wr s0 d v).
Proof. intros Q. unfold wr. destruct (oreg s0 d), v; constructor; auto. Qed.
Lemma effect_outcome s op args k a : outcome s op args (effect s k a).
Proof. destruct a; constructor; auto. Qed.
Lemma branch_outcome s op args c t r a : is_control op = true -> outcome s op args (branch A s c t r a).
Proof.
  intros C. unfold branch, jump_rel, jump_abs. destruct t as [v|], c, r; try destruct (v_to_Z A v);
    try destruct (0 <=? _)%Z; try destruct a; constructor; auto.
Qed.

Lemma exec_outcome O p s op args : outcome s op args (exec A O p s op args).
Proof.
  destruct op; destruct args as [|a1 [|a2 [|a3 [|a4 [|a5 [|a6 [|a7 r]]]]]]]; cbn [exec].
  (* the large classes first: a wrong operand count (for alias / define exec looks at the first operand
     before it counts); a result written to a register; an effect; an unconditional jump *)
  all: try (apply out_shape; reflexivity). all: try (destruct a1; apply out_shape; reflexivity).
  all: try (apply wr_outcome; constructor). all: try apply effect_outcome.
  all: try (apply branch_outcome; reflexivity).
  (* in what remains `constructor` takes the constructor of `outcome` whose shape the result has (out_err
     for `fail s 1` and `fail s 2`) and `auto` proves its side conditions *)
  - (* IBr *) destruct (oval A p s a1), (oval A p s a2); try (apply branch_outcome; reflexivity); constructor; auto.
  - (* IBrz *) destruct (oval A p s a1); [apply branch_outcome; reflexivity|constructor; auto].
  - (* IBnan *) destruct (oval A p s a1); [apply branch_outcome; reflexivity|constructor; auto].
  - (* IGet *) destruct (is_db s a2); apply wr_outcome; constructor.
  - (* IPut *) destruct (is_db s a1); [|apply effect_outcome].
    destruct (oval A p s a2), (oval A p s a3); try (constructor; solve [auto]).
    destruct (addr_of A _); constructor; auto.
  - (* IPush *) destruct (oval A p s a1), (sp_val A s); try (constructor; solve [auto]).
    destruct (addr_of A _); constructor; auto.
  - (* IPop *) destruct (sp_val A s); [destruct (addr_of A _)|]; try (constructor; solve [auto]).
    apply wr_outcome. auto.
  - (* IPeek *) destruct (sp_val A s); [destruct (addr_of A _)|]; try (constructor; solve [auto]).
    apply wr_outcome. auto.
  - (* IPoke *) destruct (oval A p s a1), (oval A p s a2); try (constructor; solve [auto]).
    destruct (addr_of A _); constructor; auto.
  - (* IBdse *) destruct (read O s RKsdse (odev A s a1)); [apply branch_outcome; reflexivity|constructor; auto].
  - (* IBdns *) destruct (read O s RKsdse (odev A s a1)); [apply branch_outcome; reflexivity|constructor; auto].
  - (* IHcf *) apply out_halt; auto.
  - (* IAlias *) destruct a1; try (apply out_shape; cbn; rewrite ?andb_false_r; reflexivity).
    destruct (resolve s a2); constructor; auto.
  - (* IDefine *) destruct a1; try (apply out_shape; cbn; rewrite ?andb_false_r; reflexivity).
    destruct (oval A p s a2); constructor; auto.
Qed.

Lemma exec_extends O p s op args : extends (exec A O p s op args) s.
Proof.
  destruct (exec_outcome O p s op args);
    eauto using quiet_extends, extends_trans, ext_fail, ext_next, ext_set_pc, ext_halt.
Qed.

Theorem step_extends O p s : extends (step A O p s) s.
Proof.
  unfold step. destruct (st s); try apply extends_refl.
  destruct (nth_error p (pc s)) as [[id|op args]|]; [apply ext_next|apply exec_extends|apply ext_halt].
Qed.

Theorem run_extends O p fuel : forall s, extends (run A O p fuel s) s.
Proof.
  induction fuel as [|k IH]; intros s; cbn [run]; [apply extends_refl|].
  destruct (st s); try apply extends_refl.
  eapply extends_trans; [apply IH|apply step_extends].
Qed.

Lemma run_add O p a : forall b s, run A O p (a + b) s = run A O p b (run A O p a s).
Proof.
  induction a as [|a IH]; intros b s; cbn [run Nat.add]; [reflexivity|].
  destruct (st s) eqn:E; [apply IH| |].
  all: destruct b; cbn [run]; [reflexivity|rewrite E; reflexivity].
Qed.

(* more fuel only appends effects: a fuel-cut trace is a prefix of every longer run *)
Theorem trace_prefix_of_longer_run O p a b s :
  exists l, trace (run A O p (a + b) s) = trace (run A O p a s) ++ l.
Proof.
  rewrite run_add. destruct (run_extends O p b (run A O p a s)) as [l H].
  exists (rev l). unfold trace. rewrite H, rev_app_distr. reflexivity.
Qed.

Theorem stopped_stays O p s : st s <> Running -> step A O p s = s.
Proof. unfold step. destruct (st s); congruence. Qed.

End Facts.

(* Helpers for correspondence case files (evaluated with vm_compute by the harness). *)
From Coq Require Import List NArith ZArith.
Import ListNotations.

Fixpoint mismatch_from {A} (f : A -> bool) (l : list A) (i : nat) : list nat :=
  match l with
  | [] => []
  | x :: r => if f x then mismatch_from f r (S i) else i :: mismatch_from f r (S i)
  end.
Definition mismatches {A} (f : A -> bool) (l : list A) : list nat := mismatch_from f l 0.

Fixpoint list_eqb {A} (eq : A -> A -> bool) (a b : list A) : bool :=
  match a, b with
  | [], [] => true
  | x :: a', y :: b' => eq x y && list_eqb eq a' b'
  | _, _ => false
  end.
Definition opt_eqb {A} (eq : A -> A -> bool) (a b : option A) : bool :=
  match a, b with
  | Some x, Some y => eq x y
  | None, None => true
  | _, _ => false
  end.
Definition NL_eqb := list_eqb N.eqb.
Definition ZL_eqb := list_eqb Z.eqb.

Lemma list_eqb_eq {A} (eq : A -> A -> bool) :
  (forall x y, eq x y = true -> x = y) -> forall a b, list_eqb eq a b = true -> a = b.
Proof.
  intros H a. induction a as [|x a IH]; destruct b as [|y b]; cbn; intros E; try discriminate; auto.
  apply andb_prop in E as [E1 E2]. f_equal; auto.
Qed.

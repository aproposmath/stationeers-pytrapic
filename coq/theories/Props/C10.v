(* C10 — compile_code always returns a verdict, promptly, and cleans up.
   The control skeletons of compile_code, Compiler.compile and eval_constexpr are re-read from
   the sources on every run; the claims are decided by the verified outcome analysis. *)
From Coq Require Import List String Lia.
From PV Require Import Model.Skel Model.SkelSem Model.SkelSemProofs Model.SkelEnvs.
From PVGen Require Import GenSkeletons.
Import ListNotations.
Local Open Scope string_scope.

Definition returns_value (r : ares) : bool := let '(o, _, _) := r in match o with OReturn => true | _ => false end.

Lemma always_returns E sk : forallb returns_value (outs E sk None) = true ->
  forall s o s', exec E s sk o s' -> o = OReturn.
Proof.
  intros H s o s' Hex. destruct (outs_all E _ _ H s o s' Hex) as (a' & c & d & Ho & _).
  destruct o; try discriminate Ho. reflexivity.
Qed.

(* Compiler.compile: whatever exception any pass, the parser or CodeData raises (any Exception
   subclass, at any point inside the try), every path ends in `return <verdict>` *)
Theorem C10_compile_always_returns :
  forall s o s', exec env_compiler_compile s gen_compiler_compile o s' -> o = OReturn.
Proof. apply always_returns. vm_compute. reflexivity. Qed.

(* compile_code (options a CompileOptions value or None, source a str or a mapping with ""):
   every path ends in the return of Compiler(options).compile(src) *)
Theorem C10_compile_code_always_returns :
  forall s o s', exec env_compile_code s gen_compile_code o s' -> o = OReturn.
Proof. apply always_returns. vm_compute. reflexivity. Qed.

(* the verdicts: every return statement of Compiler.compile returns the result dictionary or an
   {'error': ...} dictionary *)
Fixpoint return_texts (sk : skel) : list string :=
  match sk with
  | SReturn e => [e]
  | SSeq l => (fix go (l : list skel) := match l with [] => [] | s :: r => (return_texts s ++ go r)%list end) l
  | SIf _ a b => (return_texts a ++ return_texts b)%list
  | STry b hs f => (return_texts b ++ (fix go (l : list (string * skel)) := match l with [] => [] | (_, h) :: r => (return_texts h ++ go r)%list end) hs ++ return_texts f)%list
  | SWhile _ b => return_texts b
  | SFor _ _ b => return_texts b
  | _ => []
  end.
Theorem C10_verdict_shape :
  return_texts gen_compiler_compile =
  ["self.data.result"; "{'error': msg}"; "d";
   "{'error': {'description': f'Internal compiler error: {str(e)}', 'stack_trace': stack_trace}}"].
Proof. reflexivity. Qed.

(* the constexpr child process: from the statement after `process = subprocess.Popen(...)` on,
   on every path on which communicate() did not complete (timeout) the child is killed before
   the function is left *)
Definition is_popen (sk : skel) : bool :=
  match sk with SAssign "process" e => String.prefix "subprocess.Popen(" e | _ => false end.
Fixpoint after_popen (l : list skel) : option (list skel) :=
  match l with
  | [] => None
  | s :: r => if is_popen s then Some r else after_popen r
  end.
Definition child_phase : skel :=
  match gen_eval_constexpr with
  | SSeq l => match after_popen l with Some r => SSeq r | None => SSeq [SRaise "no Popen found"] end
  | _ => SSeq [SRaise "unexpected shape"]
  end.
Definition child_ok (r : ares) : bool :=
  let '(o, a, c) := r in
  match a with Some true => true | _ => is_c1 c end.
Theorem C10_child_always_reaped :
  forall s o s', fst s = false -> exec env_constexpr_child s child_phase o s' ->
    fst s' = true \/ snd s' = S (snd s).
Proof.
  (* decided from an unknown status already: what `fst s` is plays no part *)
  intros s o s' _ Hex.
  apply (outs_all _ child_ok) in Hex as (a' & c & d & H & Ha & Hc & Hd); [|vm_compute; reflexivity].
  destruct a' as [[|]|]; [left; symmetry; exact Ha|right..]; destruct c; try discriminate H; cbn in Hc; lia.
Qed.
(* non-vacuity: the child phase really starts after the Popen and contains the communicate call *)
Example C10_child_phase_nonvacuous :
  has_stmt (fun e => String.eqb e "process.communicate(timeout=1)") child_phase = true /\
  has_stmt (fun e => String.eqb e "process.kill()") child_phase = true.
Proof. split; vm_compute; reflexivity. Qed.

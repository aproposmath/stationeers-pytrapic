(* C17 — reported size statistics describe the emitted program. *)
From Coq Require Import List NArith ZArith String Lia.
From PV Require Import Base.PyStr Model.Stats Model.StatsProofs.
From PVGen Require Import GenStats.
Import ListNotations.

(* Tie (translator): the three statistics expressions read from get_code on this run. *)
Theorem C17_generated_result_fields :
  gen_result_fields = ["code"; "num_lines"; "num_registers"; "num_bytes"]%string.
Proof. reflexivity. Qed.

(* For EVERY finished program text (non-empty, "\n" the only line boundary, no trailing
   newline) and every register count: num_lines is the number of lines, num_bytes the size with
   two-byte line ends, num_registers the size of the used-register list. *)
Theorem C17_stats_meaning :
  forall s nregs, plain_text s ->
    let r := run_stats s nregs gen_stats [] in
    lookupZ "num_lines" r = Z.of_nat (line_count s) /\
    lookupZ "num_bytes" r = Z.of_nat (crlf_size s) /\
    lookupZ "num_registers" r = Z.of_nat nregs.
Proof.
  (* proved on the regenerated expressions themselves, so any arithmetic rearrangement of the
     source that keeps the meaning keeps the proof *)
  intros s nregs H. unfold gen_stats. cbn. rewrite (splitlines_line_count s H).
  unfold crlf_size, line_count. repeat split; lia.
Qed.

(* the empty program (nothing emitted): no lines and no bytes *)
Theorem C17_stats_empty_program :
  forall nregs, let r := run_stats [] nregs gen_stats [] in
    lookupZ "num_lines" r = 0%Z /\ lookupZ "num_bytes" r = Z.of_nat (crlf_size []).
Proof. intros nregs. split; reflexivity. Qed.

Theorem C17_splitlines_counts_lines :
  forall s, plain_text s -> List.length (splitlines s) = line_count s.
Proof. exact splitlines_line_count. Qed.

(* non-vacuity: a two-line text meets the premise *)
Example C17_nonvacuous : plain_text [97; 10; 98]%N.
Proof.
  split; [discriminate|]. split; [|cbn; discriminate].
  intros c [<-|[<-|[<-|[]]]]; cbn; intros H; try discriminate; reflexivity.
Qed.

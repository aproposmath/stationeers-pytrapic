(* C14 — the compile daemon answers every request with exactly one line. *)
From Coq Require Import List String Lia.
From PV Require Import Model.SkelSem Model.SkelSemProofs Model.SkelEnvs.
From PVGen Require Import GenSkeletons.
Import ListNotations.
Local Open Scope string_scope.

(* the analysis is sound for EVERY skeleton, environment and execution *)
Theorem C14_analysis_sound :
  forall E s sk o s', exec E s sk o s' -> forall a, absr a (fst s) ->
    exists a' c, In (o, a', c) (outs E sk a) /\ absr a' (fst s') /\ cnt_ok c (snd s' - snd s).
Proof. exact outs_sound. Qed.

(* process_input on a NON-EMPTY line: on every path (whichever call raises whichever exception)
   it returns normally and exactly one reply line is written *)
Definition one_reply (r : ares) : bool :=
  let '(o, _, c) := r in negb (outcome_is_raise o) && is_c1 c.
Theorem C14_one_reply_per_request :
  forall s o s', exec (env_process_input false) s gen_process_input o s' ->
    (forall x, o <> ORaise x) /\ snd s' = S (snd s).
Proof.
  intros s o s' Hex.
  apply (outs_all _ one_reply) in Hex as (a' & c & d & H & _ & Hc & Hd); [|vm_compute; reflexivity].
  apply andb_prop in H as [Ho H]. destruct c; try discriminate H. cbn in Hc.
  split; [intros x ->; discriminate Ho|lia].
Qed.

(* an empty line is skipped silently *)
Definition returns_silently (r : ares) : bool := match r with (OReturn, _, C0) => true | _ => false end.
Theorem C14_empty_line_no_reply :
  forall s o s', exec (env_process_input true) s gen_process_input o s' -> o = OReturn /\ snd s' = snd s.
Proof.
  intros s o s' Hex.
  apply (outs_all _ returns_silently) in Hex as (a' & c & d & H & _ & Hc & Hd); [|vm_compute; reflexivity].
  destruct o; try discriminate H. destruct c; try discriminate H. cbn in Hc. split; [reflexivity|lia].
Qed.

(* the main loop never lets an exception escape, and stdin is made lenient before reading *)
Theorem C14_main_loop_never_raises :
  (forall s o s', exec env_daemon_main s gen_daemon_main o s' -> forall x, o <> ORaise x) /\
  has_stmt (fun e => String.eqb e "sys.stdin.reconfigure(errors='replace')") gen_daemon_main = true.
Proof.
  split; [|vm_compute; reflexivity]. intros s o s' Hex x ->.
  apply (outs_all _ (fun r => negb (outcome_is_raise (fst (fst r))))) in Hex as (a' & c & d & H & _);
    [discriminate H|vm_compute; reflexivity].
Qed.

(* nothing else ever reaches standard output: stdout is redirected to stderr at import and the
   only statement writing to the saved real stdout is the reply *)
Theorem C14_only_reply_site_writes_stdout :
  gen_daemon_stdout_setup = ["_stdout = sys.stdout"; "sys.stdout = sys.stderr"] /\
  gen_daemon_print_sites = ["print(encoded, flush=True, file=_stdout)"].
Proof. split; reflexivity. Qed.

(* histories: the daemon serves request lines one after the other; whatever each call of
        process_input does internally (any exception raised anywhere inside it), after a whole
        history the number of replies written equals the number of non-empty lines, and no call
        ever ends by raising.  `true` in the history stands for an empty line. *)
Inductive serves : (bool * nat) -> list bool -> (bool * nat) -> Prop :=
| serves_nil : forall s, serves s [] s
| serves_cons : forall s e o s1 es s2,
    exec (env_process_input e) s gen_process_input o s1 -> serves s1 es s2 -> serves s (e :: es) s2.

Fixpoint non_empty (es : list bool) : nat :=
  match es with [] => 0 | e :: r => (if e then 0 else 1) + non_empty r end.

Theorem C14_history_replies :
  forall es s s', serves s es s' -> snd s' = snd s + non_empty es.
Proof.
  intros es s s' H. induction H as [s|s e o s1 es s2 Hx _ IH]; cbn [non_empty]; [lia|]. rewrite IH.
  destruct e; [apply C14_empty_line_no_reply in Hx as [_ ->]|apply C14_one_reply_per_request in Hx as [_ ->]]; lia.
Qed.

(* replies come in request order: after every prefix of the history the count is the number of
   non-empty lines of that prefix (so the k-th reply is written while the k-th non-empty line is served) *)
Theorem C14_history_prefix_order :
  forall es1 es2 s s', serves s (es1 ++ es2) s' ->
    exists sm, serves s es1 sm /\ serves sm es2 s' /\ snd sm = snd s + non_empty es1.
Proof.
  induction es1 as [|e es1 IH]; intros es2 s s' H; cbn [app] in H.
  - exists s. split; [constructor|]. split; [exact H|cbn; lia].
  - inversion H as [|? ? o s1 ? ? Hx Hs]; subst. destruct (IH _ _ _ Hs) as (sm & A & B & _).
    pose proof (serves_cons _ _ _ _ _ _ Hx A) as K.
    exists sm. split; [exact K|]. split; [exact B|exact (C14_history_replies _ _ _ K)].
Qed.

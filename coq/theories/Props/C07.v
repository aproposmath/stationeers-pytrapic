(* C07 — when the top-level script finishes, nothing else runs. *)
From Coq Require Import List ZArith.
From PV Require Import IC10.Values IC10.Machine Model.Layout Model.LayoutProofs.
Import ListNotations.

(* For EVERY program, oracle and running state: an instruction that is not a control transfer
   either moves to the next line or fails in place (so sequential flow is exactly "pc + 1"). *)
Theorem C07_sequential_flow_is_next_line :
  forall val (A : valg val) O p s op args,
    st s = Running -> nth_error p (pc s) = Some (LInstr op args) -> is_control op = false ->
    pc (step A O p s) = S (pc s) \/ st (step A O p s) <> Running.
Proof. exact @step_noncontrol. Qed.

(* In a closed layout the line before every function region is j / jr / hcf ... *)
Theorem C07_closed_layout_has_terminators :
  forall val (p : @program val) entries, closed p entries = true ->
    forall e, In e entries -> exists k l, e = S k /\ nth_error p k = Some l /\ seq_falls l = false.
Proof. exact @closed_spec. Qed.

(* ... and from such a line the machine never continues by sequential flow: it stops, or the
   next program counter is the evaluated jump target.  Hence in a closed layout a function
   region is entered only by an explicit transfer (jal, or j for a tail call). *)
Theorem C07_terminator_never_falls_through :
  forall val (A : valg val) O p s l,
    st s = Running -> nth_error p (pc s) = Some l -> seq_falls l = false ->
    exists op args, l = LInstr op args /\
      ((op = IHcf /\ st (step A O p s) <> Running) \/
       (st (step A O p s) <> Running) \/
       (exists t v, (op = IJ \/ op = IJr) /\ args = [t] /\ oval A p s t = Some v /\
          (op = IJ -> exists z, v_to_Z A v = Some z /\ pc (step A O p s) = Z.to_nat z) /\
          (op = IJr -> exists z, v_to_Z A v = Some z /\ pc (step A O p s) = Z.to_nat (Z.of_nat (pc s) + z)))).
Proof. exact @step_terminator. Qed.

(* past the last line the machine halts without any effect *)
Theorem C07_end_of_program_halts :
  forall val (A : valg val) O (p : @program val) s,
    st s = Running -> nth_error p (pc s) = None ->
    st (step A O p s) = Halted /\ hist (step A O p s) = hist s.
Proof. intros val A O p s Hr Hn. unfold step. rewrite Hr, Hn. split; reflexivity. Qed.

(* The emitted layout is NOT closed today when the main code can terminate: witness (the shape
   of register_assignment.ref: 'jal main / get r0 db 511 / main:').  Known finding. *)
Example C07_main_falls_through_refuted :
  closed (val := nat) [LInstr IJal [OLbl 0]; LInstr IGet [OReg 0; ODev 6; OImm 511]; LLabel 0; LInstr IJ [OReg 17]] [2] = false.
Proof. reflexivity. Qed.
Example C07_nonvacuous :
  closed (val := nat) [LLabel 1; LInstr IJal [OLbl 0]; LInstr IJ [OLbl 1]; LLabel 0; LInstr IJ [OReg 17]] [3] = true.
Proof. reflexivity. Qed.

(* C09 — emitted text is loadable IC10. *)
From Coq Require Import List ZArith Bool String.
From PV Require Import IC10.Values IC10.Machine IC10.Sig Valid.WfCode Valid.WfCodeProofs
                       Model.FormatNum Model.Fold Model.VersionNote.
From PVGen Require Import GenSites GenOps.
Local Open Scope string_scope.

(* every emission site with a literal opcode names an existing IC10 instruction and, where the
   operand list is literal, passes exactly as many operands as the instruction takes *)
Theorem C09_sites_use_real_opcodes :
  forall w o n h, In (w, o, n, h) gen_sites ->
    o = "<label>:" \/ o = "" (* comment-only line *) \/ exists s, sig_of o = Some s /\ ((n < 0)%Z \/ (n + h)%Z = Z.of_nat (n_ops s)).
Proof.
  assert (forallb (fun t => match t with (w, o, n, h) =>
            String.eqb o "<label>:" || String.eqb o "" ||
            match sig_of o with Some s => (n <? 0)%Z || Z.eqb (n + h) (Z.of_nat (n_ops s)) | None => false end end) gen_sites = true) as H
    by (vm_compute; reflexivity).
  rewrite forallb_forall in H. intros w o n h Hin. specialize (H _ Hin). cbv beta iota in H.
  apply orb_prop in H as [H|H]; [apply orb_prop in H as [H|H]|].
  - left. apply String.eqb_eq. exact H.
  - right; left. apply String.eqb_eq. exact H.
  - right; right. destruct (sig_of o) as [s|]; [|discriminate]. exists s. split; [reflexivity|].
    apply orb_prop in H as [H|H]; [left; apply Z.ltb_lt; exact H|right; apply Z.eqb_eq; exact H].
Qed.

(* the operator tables: every opcode exists, except the one named in the known finding *)
Theorem C09_table_opcodes_real_partial :
  forall e, In e (gen_binops ++ gen_unops) -> snd (fst e) <> "neg" -> sig_of (snd (fst e)) <> None.
Proof.
  assert (forallb (fun e => String.eqb (snd (fst e)) "neg" || match sig_of (snd (fst e)) with Some _ => true | None => false end)
            (gen_binops ++ gen_unops) = true) as H by (vm_compute; reflexivity).
  rewrite forallb_forall in H. intros e Hin Hn. specialize (H e Hin).
  apply orb_prop in H as [H|H]; [apply String.eqb_eq in H; contradiction|].
  destruct (sig_of (snd (fst e))); [discriminate|discriminate H].
Qed.
Theorem C09_neg_not_an_opcode_refuted :
  exists e, In e gen_unops /\ sig_of (snd (fst e)) = None.
Proof. exists ("~", "neg", PInv (PE PX)). split; [right; left; reflexivity|reflexivity]. Qed.

(* integer literals read back exactly, for EVERY integer and every set of known hashes *)
Theorem C09_integer_literal_roundtrip :
  forall hashes z, read_int_literal (format_int hashes z) = Some z.
Proof. exact format_int_roundtrip. Qed.

(* a statically well-formed program (known opcodes, right operand counts, no malformed
   operand) never stops with "unknown instruction" or "wrong operand count", for every oracle *)
Theorem C09_wf_program_never_shape_error :
  forall val (A : valg val) O p fuel, wf_program p = true ->
    st (run A O p fuel (init_state A)) <> Err 4 /\ st (run A O p fuel (init_state A)) <> Err 5.
Proof.
  intros val A O p fuel W. apply (run_no_shape_error A O p fuel W). split; cbn; discriminate.
Qed.

(* the version note: at most one line changes, and a changed line stays below 89 characters *)
Theorem C09_version_note_within_90 :
  forall l lens,
    Forall2 (fun old new => new = old \/ (new = old + l /\ new < 89)) lens (append_note l lens) /\
    List.length (filter (fun p => negb (Nat.eqb (fst p) (snd p))) (combine lens (append_note l lens))) <= 1.
Proof. intros l lens. split; [apply note_keeps_lines_short|apply note_on_at_most_one_line]. Qed.

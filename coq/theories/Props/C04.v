(* C04 — register allocation never lets one live value overwrite another. *)
From Coq Require Import List ZArith.
From PV Require Import Model.RegAlloc Model.RegAllocProofs Model.RegScopes.
Import ListNotations.

(* Interval colouring (assign_colors), for EVERY list of symbols in any order and with any
   lifetimes: two different symbols whose lifetimes overlap get different colours. *)
Theorem C04_colours_disjoint :
  forall l : list sym, NoDup (map s_id l) ->
    forall x y, In x l -> In y l -> s_id x <> s_id y -> overlap x y ->
      exists cx cy, colour_of (assign_colors l) (s_id x) = Some cx /\
                    colour_of (assign_colors l) (s_id y) = Some cy /\ cx <> cy.
Proof. exact colours_disjoint. Qed.

(* Scope ordering, for EVERY call graph: if it succeeds, every scope is placed after all scopes
   it is called from (so the registers blocked by its callers are known when it is coloured) *)
Theorem C04_scopes_processed_in_call_order :
  forall fuel cf todo placed order, sort_scopes fuel cf todo placed = Some order ->
    exists rest, order = placed ++ rest /\
      forall a s b, rest = a ++ s :: b -> subset (callers cf s) (placed ++ a) = true.
Proof. exact sort_scopes_topological. Qed.

(* ... and any call cycle makes it fail: recursion is rejected, not miscompiled *)
Theorem C04_call_cycles_rejected :
  forall fuel cf C todo placed,
    C <> [] -> (forall s, In s C -> In s todo) -> (forall s, In s C -> ~ In s placed) ->
    (forall s, In s C -> exists c, In c C /\ In c (callers cf s)) ->
    sort_scopes fuel cf todo placed = None.
Proof. exact sort_scopes_rejects_cycles. Qed.

(* a callee never receives a register blocked by its callers, only r0..r15 are handed out ... *)
Theorem C04_callee_avoids_callers_only_r0_r15 :
  forall blocked colours m, scope_regs (minus all16 blocked) colours = Some m ->
    forall id r, In (id, r) m -> (r < 16)%nat /\ ~ In r blocked.
Proof.
  intros blocked colours m H id r Hin. apply (scope_regs_avail _ _ _ H), minus_spec in Hin as [Hr Hb].
  apply in_seq in Hr. split; [apply Hr|exact Hb].
Qed.

(* ... and a colour beyond the available registers is the out-of-registers error *)
Theorem C04_out_of_registers_is_error :
  forall avail colours id c, In (id, c) colours -> (length avail <= c)%nat -> scope_regs avail colours = None.
Proof. exact out_of_registers_is_error. Qed.

Example C04_nonvacuous :
  assign_colors [{| s_id := 0; s_start := 1; s_stop := 5 |}; {| s_id := 1; s_start := 2; s_stop := 3 |};
                 {| s_id := 2; s_start := 3; s_stop := 9 |}; {| s_id := 3; s_start := 4; s_stop := 6 |}]%Z
  = [(0, 0); (1, 1); (2, 1); (3, 2)]%nat /\
  sort_scopes 5 [(1, [0]); (2, [0; 1])]%nat [2; 1; 0]%nat [] = Some [0; 1; 2]%nat /\
  sort_scopes 5 [(1, [2]); (2, [1])]%nat [2; 1; 0]%nat [] = None.
Proof. vm_compute. repeat split; reflexivity. Qed.

(* the scope loop of assign_registers as a whole (after fix 65c3091): for EVERY call graph, every
   assignment of colours and every order in which callers precede their callees, a scope uses no
   register that any of its TRANSITIVE callers uses - also when the chain passes through functions that
   own no register *)
Theorem C04_no_register_shared_with_a_transitive_caller :
  forall callers colours order s', topo callers [] order -> RegScopes.run callers colours init order = Some s' ->
    forall a x r, ancestor callers a x -> In x order -> In r (lookup (used s') x) -> ~ In r (lookup (used s') a).
Proof. exact no_register_shared_with_a_transitive_caller. Qed.

(* per compile: the exported order, called_from, colours and registers are run through the model; an
   accepted certificate proves the statement for that very allocation *)
Theorem C04_allocation_certificate_sound :
  forall order cf cols given, check_alloc order cf cols given = true ->
    forall a x r, ancestor (assoc cf []) a x -> In x order -> In a order ->
      In r (lookup given x) -> ~ In r (lookup given a).
Proof. exact check_alloc_sound. Qed.

(* C18 — share links round-trip. *)
From Coq Require Import List NArith String.
From PV Require Import Base.Base64 Model.ShareLink Model.ShareLinkProofs.
From PVGen Require Import GenShare.
Import ListNotations.
Local Open Scope N_scope.

(* Tie (translator): the replacement chains, padding rule and call pipelines read from
   types.py on this run are the ones the model below is about. *)
Theorem C18_generated_code_is_model :
  gen_enc_chain = enc_chain /\ gen_dec_chain = dec_chain /\
  gen_pad_char = PAD /\ gen_pad_mod = 4 /\
  gen_enc_pipeline = ["json.dumps"; ".encode"; "zlib.compress"; "base64.b64encode"; ".decode"]%string /\
  gen_dec_pipeline = ["base64.b64decode"; "zlib.decompress"; ".decode"; "json.loads"]%string.
Proof. repeat split; reflexivity. Qed.

(* For EVERY byte string: decoding the encoded form gives the bytes back. *)
Theorem C18_codec_roundtrip :
  forall bs, Forall (fun b => b < 256) bs -> url_decode (url_encode bs) = Some bs.
Proof. exact url_roundtrip. Qed.

(* For EVERY byte string the encoded form uses only letters, digits, '-' and '_'. *)
Theorem C18_urlsafe_alphabet :
  forall bs, Forall (fun b => b < 256) bs -> forallb urlsafe_char (url_encode bs) = true.
Proof. exact url_alphabet. Qed.

Theorem C18_length_never_1_mod_4 :
  forall bs, Forall (fun b => b < 256) bs -> N.of_nat (List.length (url_encode bs)) mod 4 <> 1.
Proof. exact url_length_not_1_mod_4. Qed.

(* The whole pipeline, zlib / JSON / UTF-8 being oracles with their round-trip laws. *)
Theorem C18_share_roundtrip :
  forall (J : Type) (ser : J -> list N) (deser : list N -> option J)
         (compress decompress_ : list N -> list N),
    (forall d, deser (ser d) = Some d) ->
    (forall bs, decompress_ (compress bs) = bs) ->
    (forall bs, Forall (fun b => b < 256) (compress bs)) ->
    forall d, decode_data J deser decompress_ (encode_data J ser compress d) = Some d
              /\ forallb urlsafe_char (encode_data J ser compress d) = true.
Proof.
  intros J ser deser compress decompress_ H1 H2 H3 d. split.
  - exact (share_roundtrip J ser deser compress decompress_ H1 H2 H3 d).
  - exact (share_urlsafe J ser compress H3 d).
Qed.

(* Non-vacuity: a concrete byte string of each length class meets the premise and exercises
   '+', '/', and both padding lengths. *)
Example C18_nonvacuous :
  url_encode [251; 255; 254] = [45; 95; 95; 45] /\ url_encode [251; 255] = [45; 95; 56] /\
  url_encode [251] = [45; 119] /\ url_decode [45; 119] = Some [251].
Proof. vm_compute. repeat split; reflexivity. Qed.

(* C15 — '# pytrapic:' directives set exactly the named options. *)
From Coq Require Import List NArith ZArith.
From PV Require Import Base.PyStr Model.Pragma Model.PragmaProofs.
From PVGen Require Import GenPragma.
Import ListNotations.

(* Tie (translator): the scanner loop has the modelled shape (checked by the translator, which
   fails closed otherwise) with exactly these literals, and a name is accepted only if it is a
   dataclass field of the options object. *)
Theorem C15_generated_scanner_is_model :
  gen_scanner_consts =
    [S KEY; S KEY; S [HASHCH]; S [HASHCH]; I 1; I 2; I 1; S KEY; I 1; I 2; I 1;
     S [COMMA]; S [DASH]; S [UNDERSCORE]; S NO_; I 3] /\
  gen_attr_test = AttrIsField.
Proof. split; reflexivity. Qed.

(* For EVERY source text and EVERY caller option vector the scanner equals "collect the
   directives of the directive lines in order, then apply them one after the other". *)
Theorem C15_scan_eq_spec : forall src o, scan src o = apply_all (directives src) o.
Proof. exact scan_eq_spec. Qed.

Theorem C15_last_wins : forall src o n, has_field o n = true ->
  lookup (scan src o) n =
  match last_directive (directives src) n with Some v => Some v | None => lookup o n end.
Proof. intros src o n H. rewrite scan_eq_spec. exact (last_wins (directives src) o n H). Qed.

Theorem C15_unnamed_untouched : forall src o n, has_field o n = true ->
  last_directive (directives src) n = None -> lookup (scan src o) n = lookup o n.
Proof. intros src o n H1 H2. rewrite scan_eq_spec. exact (unnamed_untouched _ o n H1 H2). Qed.

Theorem C15_unknown_ignored : forall o d, has_field o (fst d) = false -> apply_directive o d = o.
Proof. exact unknown_ignored. Qed.

Theorem C15_option_set_unchanged : forall src o, map fst (scan src o) = map fst o.
Proof. intros src o. rewrite scan_eq_spec. exact (option_names_unchanged _ o). Qed.

Theorem C15_code_lines_inert : forall line,
  starts_with [HASHCH] (lstrip line) = false -> line_tags line = [].
Proof. exact code_lines_inert. Qed.

Theorem C15_dash_underscore_alike : forall tag,
  norm_tag (replace_char DASH UNDERSCORE tag) = norm_tag tag.
Proof. exact dash_underscore_alike. Qed.

(* non-vacuity: "# pytrapic: compact, no-inline-functions\nx = 1 # pytrapic: remove-labels" on the
   defaults sets compact, clears inline_functions and leaves remove_labels alone *)
Definition ex_src : pystr :=
  [35;32;112;121;116;114;97;112;105;99;58;32;99;111;109;112;97;99;116;44;32;110;111;45;105;110;108;105;110;101;45;102;117;110;99;116;105;111;110;115;10;
   120;32;61;32;49;32;35;32;112;121;116;114;97;112;105;99;58;32;114;101;109;111;118;101;45;108;97;98;101;108;115]%N.
Example C15_nonvacuous :
  map snd (scan ex_src gen_option_fields) = [false; false; false; false; true; true; false; false].
Proof. vm_compute. reflexivity. Qed.

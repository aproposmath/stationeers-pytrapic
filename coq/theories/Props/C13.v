(* C13 — library modules behave like the same code written in the main file.
   The split program (main + library modules) and the merged single-file program (library-level
   names prefixed with the module name) are two renderings of ONE source tree of Src.Sem; the
   statement is: both compile to programs whose effect traces agree with that tree's semantics
   and with each other.  Decided per pair of real compiler outputs by execution on the machine. *)
From Coq Require Import List.
From PV Require Import IC10.Values IC10.Machine IC10.MachineProofs Src.Sem Valid.Diff Valid.DiffProofs.
Import ListNotations.

Definition C13_statement {val} (A : valg val) (P : @prog val) (Tsplit Tmerged : @program val) : Prop :=
  forall O fs f1 f2 k x y z,
    nth_error (fst (run_src A fs P O)) k = Some x ->
    nth_error (trace (run A O Tsplit f1 (init_state A))) k = Some y ->
    nth_error (trace (run A O Tmerged f2 (init_state A))) k = Some z ->
    ev_eqb A x y = true /\ ev_eqb A x z = true.

(* verdict 0 of the source-vs-target comparison implies event-wise agreement *)
Theorem C13_verdict_sound :
  forall val (A : valg val) sres tt ts c i ns nt e1 e2,
    judge A sres tt ts = (c, i, ns, nt, e1, e2) -> c = 0 ->
    forall k x y, nth_error (fst sres) k = Some x -> nth_error tt k = Some y -> ev_eqb A x y = true.
Proof. exact @judge_agree_sound. Qed.

(* verdict 0 of the split-vs-merged comparison implies event-wise agreement *)
Theorem C13_pair_verdict_sound :
  forall val (A : valg val) a sa b sb c i na nb e1 e2,
    judge2 A a sa b sb = (c, i, na, nb, e1, e2) -> c = 0 ->
    forall k x y, nth_error a k = Some x -> nth_error b k = Some y -> ev_eqb A x y = true.
Proof. exact @judge2_agree_sound. Qed.

Theorem C13_traces_monotone :
  forall val (A : valg val) O p a b s,
    exists l, trace (run A O p (a + b) s) = trace (run A O p a s) ++ l.
Proof. exact @trace_prefix_of_longer_run. Qed.

(* import aliases: the module table after `from library import <file> [as <alias>]` statements is
   Python's own binding - a name refers to the file of the LAST import that bound it, whatever other files
   or aliases are spelled alike - provided the pass reads the ORIGINAL table and writes a fresh one, which
   is re-read from CompilerPassSetModuleNames on every run *)
From Coq Require Import String.
From PV Require Import Model.ModuleNames Model.Skel.
From PVGen Require Import GenSkeletons.
Local Open Scope string_scope.
Theorem C13_aliases_bind_like_python_imports :
  forall Mod files (L : list import) d d', rename Mod files L d = Some d' ->
    forall k, dict_get Mod d' k = py_binding Mod files L (dict_get Mod d k) k.
Proof. exact rename_is_python_binding. Qed.

Theorem C13_module_names_pass_as_modelled :
  gen_modnames_import =
    SSeq [SIf "node.modname != 'library'" (SSeq [SReturn ""]) (SSeq []);
          SFor "(name, alias)" "node.names"
            (SSeq [SAssign "new_name" "alias if alias else name";
                   SAssign "module" "self.data.modules[name]";
                   SAssign "module.name" "new_name";
                   SAssign "self._renamed_modules[new_name]" "module"])] /\
  gen_modnames_run =
    SSeq [SAssign "self._renamed_modules" "{}"; SExpr "self._info('run')";
          SFor "module" "self.data.modules.values()" (SSeq [SExpr "self._visit_node_recursive(module)"]);
          SExpr "self._visit_node_recursive(self.tree)";
          SAssign "self.data.modules" "self._renamed_modules"].
Proof. split; reflexivity. Qed.

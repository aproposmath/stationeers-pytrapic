(* C11 — a compilation's result does not depend on what was compiled before. *)
From Coq Require Import List String.
From PV Require Import Model.GlobalState Model.Skel Model.SkelEnvs.
From PVGen Require Import GenGlobals GenSkeletons.
Import ListNotations.
Local Open Scope string_scope.

(* For EVERY history of requests and EVERY request (any evaluator, any compiler that uses the
   evaluator only by calling it): the result equals the result in a fresh process. *)
Theorem C11_history_independent :
  forall (Src Opt Res Key Val : Type) (key_eqb : Key -> Key -> bool),
    (forall a b, key_eqb a b = true -> a = b) ->
    forall (ev : Key -> Val) (pragmas : Src -> Opt -> Opt) (compact : Opt -> bool)
           (comp : bool -> Src -> Opt -> (Key -> Val) -> Res * list Key),
      (forall m s o f g, (forall k, f k = g k) -> comp m s o f = comp m s o g) ->
      forall h r,
        snd (serve Src Opt Res Key Val key_eqb ev pragmas compact comp (run_history Src Opt Res Key Val key_eqb ev pragmas compact comp h) r)
        = snd (serve Src Opt Res Key Val key_eqb ev pragmas compact comp (ginit Key Val) r).
Proof. exact history_independent. Qed.

(* Tie (translator): the inventory of process-wide mutable state in the package is exactly the
   one the model accounts for: the three state variables above, read-only tables, the timing
   debug variable, and the daemon's log handles / stdout redirection. *)
Theorem C11_inventory_covered :
  gen_globals = [
    ("compiler", "_last_time", "rebound");
    ("generate_code", "_HAS_RELATIVE_INSTRUCTION", "container_const");
    ("mod_daemon", "_err_file", "rebound");
    ("mod_daemon", "_log_file", "rebound");
    ("mod_daemon", "sys.stdout", "attribute_write");
    ("types", "constants", "container_const");
    ("utils", "_all_hashes", "container_mutated");
    ("utils", "_branch_variant", "container_const");
    ("utils", "_eval_constexpr_cache", "container_mutated");
    ("utils", "_math_functions", "container_const");
    ("utils", "_output_mode", "rebound")].
Proof. reflexivity. Qed.

(* the caller's options object is not modified: the directive scanner works on a copy, made
   before the first write, and the output mode is set from the request before compiling *)
Fixpoint stmts (sk : skel) : list skel := match sk with SSeq l => l | _ => [sk] end.
Definition copies_options_first : bool :=
  match gen_compile_code with
  | SSeq l =>
      (* the statement that scans directives contains a copy of `options` before any setattr *)
      existsb (fun s => has_stmt (fun e => String.eqb e "copy.copy(options)") s) l
  | _ => false
  end.
Theorem C11_caller_options_copied_before_directives : copies_options_first = true.
Proof. vm_compute. reflexivity. Qed.

Theorem C11_mode_set_from_request_before_compile :
  has_stmt (fun e => String.eqb e "set_output_mode(OutputMode.COMPACT if options.compact else OutputMode.VERBOSE)") gen_compile_code = true.
Proof. vm_compute. reflexivity. Qed.

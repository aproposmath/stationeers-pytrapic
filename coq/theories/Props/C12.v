(* C12 — constexpr calls are replaced by exactly what the function returns; the decorated
   function emits no code; functions containing open, eval or exec are rejected.
   The mechanisms (forbidden-word test, body removal, the skip in code gathering) are re-read
   from the sources on every run; the value itself is computed by CPython (outside the model)
   and compared by the correspondence runs of tools/pv/props/c12.py. *)
From Coq Require Import List String Bool.
From PV Require Import Base.PyStr Model.Skel Model.Constexpr Model.ConstexprProofs.
From PVGen Require Import GenSkeletons.
Import ListNotations.

Definition bytes (s : string) : pystr := map Ascii.N_of_ascii (list_ascii_of_string s).
Definition has (needle hay : string) : bool := PyStr.contains (bytes needle) (bytes hay).

(* rejection: a function text with open / eval / exec standing as a word anywhere *)
Theorem C12_forbidden_rejected : forall pre rest w,
  w = W_OPEN \/ w = W_EVAL \/ w = W_EXEC ->
  (match rev pre with [] => True | c :: _ => is_word c = false end) ->
  (match rest with [] => True | c :: _ => is_word c = false end) ->
  forbidden (pre ++ w ++ rest) = true.
Proof. exact forbidden_rejected. Qed.
Print Assumptions C12_forbidden_rejected.

Example forbidden_example :
  forbidden (bytes "def f(a):
    return eval('1')") = true /\
  forbidden (bytes "def f(opened, evaluate, _exec):
    return opened") = false.
Proof. split; vm_compute; reflexivity. Qed.

(* the source applies exactly this test, and raises when it matches *)
Local Open Scope string_scope.
Theorem C12_source_applies_the_test :
  gen_constexpr_check =
  SSeq [SImport;
        SIf "re.search('\\b(open|eval|exec)\\b', node.as_string())"
            (SSeq [SRaise "CompilerError('Constexpr functions cannot contain open, eval or exec statements', node)"])
            (SSeq [])].
Proof. reflexivity. Qed.

(* decorated functions: checked first, source recorded, body removed *)
Fixpoint assigns (sk : skel) : list (string * string) :=
  match sk with
  | SAssign t e => [(t, e)]
  | SSeq l => (fix go (l : list skel) := match l with [] => [] | s :: r => (assigns s ++ go r)%list end) l
  | SIf _ a b => (assigns a ++ assigns b)%list
  | SFor _ _ b => assigns b
  | SWhile _ b => assigns b
  | _ => []
  end.

Definition constexpr_branch : option skel :=
  match gen_constexpr_decorators with
  | SSeq [SFor "n" "node.nodes" (SSeq [_; SIf "n.name in ['constexpr', 'emit_code']" yes (SSeq [SRaise _])])] => Some yes
  | _ => None
  end.

Theorem C12_decorated_function_is_checked_recorded_and_emptied :
  exists rest,
    constexpr_branch = Some (SSeq (SAssign "fnode" "node.parent" :: SExpr "self.check_constexpr_function(fnode)" :: rest))
    /\ In ("fnode.body", "[]") (assigns (SSeq rest))
    /\ In ("self.data.constexpr_functions[scope]",
           "self.data.constexpr_functions.get(scope, '') + '\n' + fnode.as_string()") (assigns (SSeq rest)).
Proof.
  eexists. split; [reflexivity|]. cbn. auto.
Qed.

(* code gathering: a constexpr function is skipped before anything is appended *)
Definition mentions (needle : string) (sk : skel) : bool :=
  (fix go (sk : skel) : bool :=
     match sk with
     | SExpr e => has needle e
     | SAssign t e => has needle t || has needle e
     | SSeq l => (fix gl (l : list skel) := match l with [] => false | s :: r => go s || gl r end) l
     | SIf _ a b => go a || go b
     | SFor _ _ b => go b
     | SWhile _ b => go b
     | _ => false
     end) sk.

Definition gather_loop_body : option (list skel) :=
  match gen_gather_run with
  | SSeq l =>
      (fix find (l : list skel) :=
         match l with
         | [] => None
         | SFor "fname" "sorted(self.data.functions.keys())" (SSeq b) :: _ => Some b
         | _ :: r => find r
         end) l
  | _ => None
  end.

(* the only statements of CompilerPassGatherCode.run that add lines to the output stand in the
   per-function loop, after `if func.is_constexpr: continue` *)
Theorem C12_constexpr_functions_are_skipped :
  exists rest,
    gather_loop_body = Some (SAssign "func" "self.data.functions[fname]"
                             :: SIf "func.is_constexpr" (SSeq [SContinue]) (SSeq []) :: rest)
    /\ existsb (mentions "self.code.append") rest = true.
Proof.
  (* evaluate before comparing: `reflexivity` alone unifies the unevaluated search with a term
     that holds the unknown `rest`, and takes seconds *)
  eexists. split; [vm_compute; reflexivity|]. vm_compute. reflexivity.
Qed.

Theorem C12_nothing_appended_outside_the_loop :
  match gen_gather_run with
  | SSeq l => forallb (fun s => match s with
                                | SFor "fname" _ _ => true
                                | _ => negb (mentions "self.code.append" s)
                                end) l = true
  | _ => False
  end.
Proof. vm_compute. reflexivity. Qed.

(* transport of the value: every integer result arrives unchanged in the literal the
        chip reads, whatever the hash table says about it *)
Theorem C12_integer_result_arrives_unchanged : forall hashes z, transport_int hashes z = Some z.
Proof. exact transport_int_identity. Qed.
Print Assumptions C12_integer_result_arrives_unchanged.

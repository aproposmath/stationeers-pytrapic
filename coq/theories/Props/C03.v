(* C03 — compile-time evaluation gives the value the chip would compute. *)
From Coq Require Import List ZArith PrimFloat.
From PV Require Import IC10.Values IC10.Machine IC10.FloatAlg IC10.FloatFacts IC10.Sig Model.Fold Model.FoldProofs Model.FoldTree.
From PVGen Require Import GenOps.

(* Tie (translator): the operator tables read from utils.py on this run, lambdas included, are
   the ones the theorems below are about. *)
Theorem C03_generated_tables_are_model :
  gen_binops = model_binops /\ gen_unops = model_unops.
Proof. split; reflexivity. Qed.

(* every table entry names an instruction whose run-time meaning is defined *)
Theorem C03_binop_opcodes_known :
  forall e, In e gen_binops -> chip_binop (snd (fst e)) <> None /\ sig_of (snd (fst e)) <> None.
Proof.
  assert (forallb (fun e => match chip_binop (snd (fst e)), sig_of (snd (fst e)) with Some _, Some _ => true | _, _ => false end) gen_binops = true) as H
    by (vm_compute; reflexivity).
  rewrite forallb_forall in H. intros e Hin. specialize (H e Hin).
  destruct (chip_binop (snd (fst e))), (sig_of (snd (fst e))); try discriminate. split; discriminate.
Qed.

(* + - * / ** : the folded value IS the instruction's result, for all operands *)
Theorem C03_fold_arith_agrees : forall x y r,
  (fold2 (PBin PAdd (PE PX) (PE PY)) x y = Some r -> r = fbin Badd x y) /\
  (fold2 (PBin PSub (PE PX) (PE PY)) x y = Some r -> r = fbin Bsub x y) /\
  (fold2 (PBin PMul (PE PX) (PE PY)) x y = Some r -> r = fbin Bmul x y) /\
  (fold2 (PBin PDiv (PE PX) (PE PY)) x y = Some r -> r = fbin Bdiv x y) /\
  (fold2 (PBin PPow (PE PX) (PE PY)) x y = Some r -> r = fbin Bpow x y).
Proof.
  intros x y r. repeat split; intros H; exact (fold_arith _ _ x y r H eq_refl).
Qed.

(* % : for every modulus that is not negative *)
Theorem C03_fold_mod_agrees : forall x y r, PrimFloat.ltb y PrimFloat.zero = false ->
  fold2 (PBin PMod (PE PX) (PE PY)) x y = Some r -> r = fbin Bmod x y.
Proof. exact (fold_mod zero_not_neg). Qed.

(* comparisons, both table shapes *)
Theorem C03_fold_cmp_agrees : forall c x y r,
  (fold2 (PCmp c (PE PX) (PE PY)) x y = Some r -> r = of_bool FloatAlg (fcmp c x y)) /\
  (fold2 (PCmp c PX PY) x y = Some r -> r = of_bool FloatAlg (fcmp c x y)).
Proof. intros c x y r. split; exact (fold_cmp c x y r). Qed.

(* and or ^ & : operands non-negative integers below 2^53 *)
Theorem C03_fold_bitwise_agrees : forall x y a c r, int_operand x a -> int_operand y c ->
  (fold2 (PBin PBitAnd (PInt (PE PX)) (PInt (PE PY))) x y = Some r -> r = fbin Band x y) /\
  (fold2 (PBin PBitOr (PInt (PE PX)) (PInt (PE PY))) x y = Some r -> r = fbin Bor x y) /\
  (fold2 (PBin PBitXor (PInt (PE PX)) (PInt (PE PY))) x y = Some r -> r = fbin Bxor x y).
Proof.
  intros x y a c r Hx Hy. repeat split.
  - exact (fold_bit PBitAnd Z.land andb x y a c r (fun _ _ => eq_refl) eq_refl Z.land_spec Hx Hy).
  - exact (fold_bit PBitOr Z.lor orb x y a c r (fun _ _ => eq_refl) eq_refl Z.lor_spec Hx Hy).
  - exact (fold_bit PBitXor Z.lxor xorb x y a c r (fun _ _ => eq_refl) eq_refl Z.lxor_spec Hx Hy).
Qed.

(* >> << : left operand a non-negative integer below 2^53, amounts 0..63 (0..9 for <<) *)
Theorem C03_fold_shift_agrees : forall x y a c r, int_operand x a -> trunc_Z y = Some c ->
  ((0 <= c < 64)%Z -> fold2 (PBin PShr (PInt (PE PX)) (PInt (PE PY))) x y = Some r -> r = fbin Bsrl x y) /\
  ((0 <= c <= 9)%Z -> fold2 (PBin PShl (PInt (PE PX)) (PInt (PE PY))) x y = Some r -> r = fbin Bsll x y).
Proof.
  intros x y a c r Hx Hy. split; intros Hc.
  - exact (fold_shr x y a c r Hx Hy Hc). - exact (fold_shl x y a c r Hx Hy Hc).
Qed.

(* unary: not, -, ~ *)
Theorem C03_fold_unary_agrees : forall x r,
  (fold1 (PInt (PNot (PE PX))) x = Some r -> r = of_bool FloatAlg (fcmp Ceq x (of_Z 0))) /\
  (fold1 (PNeg (PE PX)) x = Some r ->
     r = fbin Bsub (of_Z 0) x \/
     (PrimFloat.eqb r PrimFloat.zero = true /\ PrimFloat.eqb (fbin Bsub (of_Z 0) x) PrimFloat.zero = true)) /\
  fold1 (PInv (PE PX)) x = None.
Proof.
  intros x r. repeat split.
  - exact (fold_not x r).
  - intros H. rewrite (fold_neg x r H). apply neg_is_zero_minus.
Qed.

(* whole expression trees (the recursion of is_constant): for every tree over + - * / ** and the six
   comparisons, of any shape and depth, on any constants, built with the tables read on this run:
   whenever the compiler folds the tree to r, executing the instructions on the same constants gives r *)
Theorem C03_arithmetic_trees_fold_to_run_time_value : forall t r,
  total_tree t = true -> fold_tree gen_binops gen_unops t = Some r -> run_tree gen_binops gen_unops t = Some r.
Proof. exact arithmetic_trees_fold_to_run_time_value. Qed.

(* ... and for trees over all operators, provided each node's operands are in that operator's domain *)
Theorem C03_trees_fold_to_run_time_value : forall t r,
  nodes_agree gen_binops gen_unops t -> fold_tree gen_binops gen_unops t = Some r -> run_tree gen_binops gen_unops t = Some r.
Proof. exact (fold_tree_is_run_tree gen_binops gen_unops). Qed.

(* non-vacuity: concrete operands in each domain *)
Example C03_nonvacuous :
  fold2 (PBin PMod (PE PX) (PE PY)) (-7)%float 3%float = Some 2%float /\
  fold2 (PBin PBitOr (PInt (PE PX)) (PInt (PE PY))) 4%float 1%float = Some 5%float /\
  int_operand 4%float 4%Z /\ fold2 (PBin PShr (PInt (PE PX)) (PInt (PE PY))) 1000%float 2%float = Some 250%float.
Proof. vm_compute. repeat split; discriminate. Qed.

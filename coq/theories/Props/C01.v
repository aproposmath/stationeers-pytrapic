(* C01 — compiled IC10 behaves like the Python source it came from.

   Full statement (over the trusted semantics Src.Sem and IC10.Machine, any value algebra A):
     for every source program P and emitted program T = compile P, every oracle O and all
     fuels, the effect trace of P and the effect trace of T agree on their common length, and
     neither stops while the other still produces effects.
   The compiler itself (3000 lines over mutable astroid objects) is not modelled as a function;
   the statement is decided per compile by validation: the theorems below are the kernel-checked
   parts (for ALL programs / operands), the run-time tie is differential execution of real
   compiler output through the very definitions the theorems are about. *)
From Coq Require Import List ZArith Bool String PrimFloat.
From PV Require Import IC10.Values IC10.Machine IC10.MachineProofs IC10.FloatAlg IC10.FloatFacts
                       Src.Sem Valid.Diff Valid.DiffProofs Model.Fold Model.Tables Model.TablesProofs Model.ForRange Model.IfTest.
From PVGen Require Import GenOps GenForRange GenIfTest.
Import ListNotations.
Local Open Scope string_scope.

Definition C01_statement {val} (A : valg val) (compile : @prog val -> option (@program val)) : Prop :=
  forall P T, compile P = Some T -> forall O fs ft,
    let '(se, _) := run_src A fs P O in
    let tt := trace (run A O T ft (init_state A)) in
    forall k x y, nth_error se k = Some x -> nth_error tt k = Some y -> ev_eqb A x y = true.

(* (1) effects are never retracted: a fuel-cut target trace is a prefix of every longer run,
   for every program, oracle and state — comparing prefixes is therefore meaningful *)
Theorem C01_target_trace_monotone :
  forall val (A : valg val) O p a b s,
    exists l, trace (run A O p (a + b) s) = (trace (run A O p a s) ++ l)%list.
Proof. exact @trace_prefix_of_longer_run. Qed.

(* (2) soundness of the comparison: verdict 0 means the traces agree event by event *)
Theorem C01_verdict_agree_sound :
  forall val (A : valg val) sres tt ts c i ns nt e1 e2,
    judge A sres tt ts = (c, i, ns, nt, e1, e2) -> c = 0 ->
    forall k x y, nth_error (fst sres) k = Some x -> nth_error tt k = Some y -> ev_eqb A x y = true.
Proof. exact @judge_agree_sound. Qed.

(* (3) branch selection: for every source comparison operator the generated table pairs it
   with the suffix of the NEGATED relation (finite, over the regenerated tables) ... *)
Theorem C01_negated_suffix_table :
  forall op s n, assoc op gen_cmp_suffix = Some s -> assoc op gen_neg_cmp_suffix = Some n ->
    exists c, cmp_of_suffix s = Some c /\ cmp_of_suffix n = Some (cmp_neg c).
Proof.
  assert (Forall (fun p => forall n, assoc (fst p) gen_neg_cmp_suffix = Some n ->
            exists c, cmp_of_suffix (snd p) = Some c /\ cmp_of_suffix n = Some (cmp_neg c)) gen_cmp_suffix) as H
    by (repeat (apply Forall_cons; [intros n [= <-]; eexists; split; reflexivity|]); apply Forall_nil).
  intros op s n Hs. exact (proj1 (Forall_forall _ _) H (op, s) (assoc_In _ _ _ Hs) n).
Qed.

(* ... and for ALL ordered (non-NaN) operands the branch on the negated relation is taken exactly
   when the source comparison is false *)
Theorem C01_negated_branch_correct :
  forall c x y, PrimFloat.is_nan x = false -> PrimFloat.is_nan y = false ->
    fcmp (cmp_neg c) x y = negb (fcmp c x y).
Proof. exact cmp_neg_correct. Qed.

(* the premise is needed: with a NaN operand both relations are false (known finding) *)
Theorem C01_negated_branch_nan_refuted :
  exists x y, fcmp (cmp_neg Clt) x y = false /\ fcmp Clt x y = false.
Proof. exact cmp_neg_nan_refuted. Qed.

(* (4) `for v in range(start, stop, step)`: the exit branch, the direction test, the increment and the
   back jump are re-read from handle_for on every run ... *)
Theorem C01_for_range_lowering_as_modelled :
  test_of_opcode gen_for_branch_increasing = Some TGe /\ test_of_opcode gen_for_branch_decreasing = Some TLe /\
  gen_for_branch_operands = "[iter_sym, end, end_label]" /\
  gen_for_direction_test = "args[2]._ndata.constant_value >= 0" /\ gen_for_default_increasing = true /\
  gen_for_tail = [("f'{cont_label}:'", "", ""); ("add", "[iter_sym, step]", "iter_sym"); ("j", "[for_label]", ""); ("f'{end_label}:'", "", "")].
Proof. repeat split; reflexivity. Qed.

(* ... and with those branches the loop visits exactly Python's range(start, stop, step) (CPython's
   length formula), for EVERY start, stop and constant step > 0, resp. < 0 *)
Theorem C01_for_range_increasing : forall a b s t, (0 < s)%Z ->
  test_of_opcode gen_for_branch_increasing = Some t ->
  forall fuel, (Z.to_nat (range_len a b s) < fuel)%nat -> loop t a b s fuel = py_range a b s.
Proof.
  intros a b s t Hs [= <-]. exact (loop_up_is_range a b s Hs).
Qed.
Theorem C01_for_range_decreasing : forall a b s t, (s < 0)%Z ->
  test_of_opcode gen_for_branch_decreasing = Some t ->
  forall fuel, (Z.to_nat (range_len a b s) < fuel)%nat -> loop t a b s fuel = py_range a b s.
Proof.
  intros a b s t Hs [= <-]. exact (loop_down_is_range a b s Hs).
Qed.

(* (5) the test of an `if`: gen_* are re-read from handle_if / try_replace_call_with_branch on every run
   (tools/pyt2coq/iftest.py).  Python runs the body of `if [not] c` iff  truth(c) xor negated.

   constant test: exactly the branch Python runs is kept (and it is emitted unguarded) ... *)
Theorem C01_constant_if_keeps_the_branch_python_runs : forall v negated body_present else_present,
  gen_const_test v negated body_present else_present
  = (body_present && python_runs_body v negated, else_present && negb (python_runs_body v negated)) /\
  gen_literal_test v negated body_present else_present
  = (body_present && python_runs_body v negated, else_present && negb (python_runs_body v negated)).
Proof. intros; split; [apply const_test_spec | apply literal_test_spec]. Qed.

(* ... run-time test: the one branch instruction placed before the body (comparison, plain value, device
   test sdse / sdns) is taken -- skipping the body -- exactly when Python does not run the body, with and
   without `not` (comparisons: for ordered operands, see C01_negated_branch_nan_refuted) *)
Theorem C01_if_branch_skips_body_iff_python_skips : forall negated,
  (forall r, compare_branch_taken (gen_compare_uses_negated_suffix negated) r = negb (python_runs_body r negated)) /\
  (forall t, value_branch_taken (gen_value_branch negated) t = Some (negb (python_runs_body t negated))) /\
  (forall f set tv, device_test_value f set = Some tv ->
     device_branch_taken (gen_device_test_branch f negated) set = Some (negb (python_runs_body tv negated))).
Proof. intros n. exact (conj (compare_branch_spec n) (conj (value_branch_spec n) (fun f => device_branch_spec f n))). Qed.

(* the premises are satisfiable: `if not sdse(d)` on a device that is not set runs the body *)
Example C01_if_not_sdse_example :
  device_test_value "sdse" false = Some false /\ gen_device_test_branch "sdse" true = "bdse" /\
  device_branch_taken "bdse" false = Some false /\ python_runs_body false true = true.
Proof. repeat split; reflexivity. Qed.

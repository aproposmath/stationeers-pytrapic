(* C05 — every jump lands on the instruction the source construct meant; label removal is a
   pure renumbering. *)
From Coq Require Import List ZArith.
From Coq Require Import PrimFloat.
From PV Require Import IC10.Values IC10.Machine IC10.FloatAlg Valid.Resolve Valid.ResolveProofs Valid.ResolveSem.
From PV Require Valid.ResolveCalls.
From PV Require Model.UnusedLabels.
Import ListNotations.

(* (b) reference renumbering: for EVERY program and label, the number that replaces the label
   is the index, in the label-free program, of the (resolved) instruction following the label *)
Theorem C05_resolve_target_is_next_instruction :
  forall val (A : valg val) p id n, label_target p id = Some n ->
    exists i, find_label p id 0 = Some i /\
      nth_error (resolve A p) n =
      match next_instr p i with
      | Some (LInstr op args) => Some (LInstr op (map (res_operand A p) args))
      | _ => None
      end.
Proof. exact @resolve_target_is_next_instruction. Qed.

(* the resolved program contains neither label lines nor label operands *)
Theorem C05_resolve_label_free :
  forall val (A : valg val) p l, In l (resolve A p) ->
    exists op args, l = LInstr op args /\ forall o, In o args -> match o with OLbl _ => False | _ => True end.
Proof. exact @resolve_label_free. Qed.

(* (a) the static label check: every referenced label is defined exactly once and resolves *)
Theorem C05_wf_labels_defined :
  forall val (p : list (@line val)), wf_labels p = true ->
    forall id, In id (refs p) -> count_defs p id = 1 /\ exists i, find_label p id 0 = Some i.
Proof. exact @wf_labels_defined. Qed.

Example C05_nonvacuous :
  let p := [LInstr IJal [OLbl 0]; LInstr IJ [OLbl 1]; LLabel 0; LInstr IYield []; LInstr IJ [OReg 17]; LLabel 1] : list (@line nat) in
  wf_labels p = true /\ label_target p 0 = Some 2 /\ label_target p 1 = Some 4.
Proof. repeat split; reflexivity. Qed.

(* (c) SEMANTICS, call-free fragment.  For every labelled program in which labels occur only as the
   targets of absolute non-linking jumps / branches (each a defined label), without jal / jr / relative
   branches and without alias / define names, for every behaviour of the attached devices and every
   number of steps: the label-free program `resolve q` reaches a state with the same effect history,
   status, registers and memory, its pc being the number of instruction lines before q's pc.
   Stated for an arbitrary value algebra in which q's line numbers are exactly representable ... *)
Theorem C05_label_removal_preserves_behaviour_call_free :
  forall val (A : valg val) (O : @oracle val) (q : list (@line val)),
    (forall n, n <= length q -> v_to_Z A (of_nat A n) = Some (Z.of_nat n)) ->
    frag q = true -> forall fuel, exists fuel', (fuel' <= fuel) /\
    let a := run A O q fuel (init_state A) in
    let b := run A O (resolve A q) fuel' (init_state A) in
    hist b = hist a /\ st b = st a /\ regs b = regs a /\ mem b = mem a /\ pc b = instrs_before q (pc a).
Proof. exact @resolve_preserves_behaviour. Qed.

(* ... and for the chip's binary64 arithmetic, every program of at most 4096 lines *)
Theorem C05_label_removal_preserves_behaviour_call_free_float :
  forall (O : @oracle float) (q : list (@line float)),
    length q <= 4096 -> frag q = true -> forall fuel, exists fuel', (fuel' <= fuel) /\
    let a := run FloatAlg O q fuel (init_state FloatAlg) in
    let b := run FloatAlg O (resolve FloatAlg q) fuel' (init_state FloatAlg) in
    hist b = hist a /\ st b = st a /\ regs b = regs a /\ mem b = mem a /\ pc b = instrs_before q (pc a).
Proof. exact resolve_preserves_behaviour_float. Qed.

(* and conversely: whatever the label-free program does after any number of steps, the labelled
   program does too (it needs the extra steps over its label lines) *)
Theorem C05_label_free_runs_are_runs_of_the_labelled_program :
  forall (O : @oracle float) (q : list (@line float)),
    length q <= 4096 -> frag q = true -> forall fuel', exists fuel,
    let a := run FloatAlg O q fuel (init_state FloatAlg) in
    let b := run FloatAlg O (resolve FloatAlg q) fuel' (init_state FloatAlg) in
    hist b = hist a /\ st b = st a /\ regs b = regs a /\ mem b = mem a /\ pc b = instrs_before q (pc a).
Proof. exact resolve_behaviour_converse_float. Qed.

(* (d) SEMANTICS with calls.  The same for programs that also contain `jal <label>` and `j ra`, provided
   no other operand names ra (leaf subroutines, which need not save it): same effect history, status and
   memory; the registers agree except that ra holds the renumbered return address; the pc is renumbered *)
Theorem C05_label_removal_preserves_behaviour_with_leaf_calls :
  forall (O : @oracle float) (q : list (@line float)),
    length q <= 4096 -> ResolveCalls.frag q = true -> forall fuel, exists fuel', (fuel' <= fuel) /\
    let a := run FloatAlg O q fuel (init_state FloatAlg) in
    let b := run FloatAlg O (resolve FloatAlg q) fuel' (init_state FloatAlg) in
    hist b = hist a /\ st b = st a /\ mem b = mem a /\
    regs b = ResolveCalls.map_regs FloatAlg q (regs a) /\ pc b = instrs_before q (pc a).
Proof. exact ResolveCalls.resolve_preserves_behaviour_with_calls_float. Qed.

Theorem C05_label_free_runs_with_leaf_calls_are_runs_of_the_labelled_program :
  forall (O : @oracle float) (q : list (@line float)),
    length q <= 4096 -> ResolveCalls.frag q = true -> forall fuel', exists fuel,
    let a := run FloatAlg O q fuel (init_state FloatAlg) in
    let b := run FloatAlg O (resolve FloatAlg q) fuel' (init_state FloatAlg) in
    hist b = hist a /\ st b = st a /\ mem b = mem a /\
    regs b = ResolveCalls.map_regs FloatAlg q (regs a) /\ pc b = instrs_before q (pc a).
Proof. exact ResolveCalls.resolve_behaviour_with_calls_converse_float. Qed.

(* (e) remove_unused_labels (labelled mode): Model/UnusedLabels.v is the function line by line (`UnusedLabels.rul`), compared with
   the real function in every run.  For EVERY program text: the result is the program with some lines left out;
   only lines that read `<label>:` for a defined label that no token of any line mentions are left out; no
   instruction line is ever left out ... *)
Theorem C05_unused_label_removal_drops_only_unreferenced_label_lines : forall p l,
  UnusedLabels.sublist (UnusedLabels.rul p) p /\
  (In l p -> UnusedLabels.ends_colon (UnusedLabels.raw l) = false -> In l (UnusedLabels.rul p)) /\
  (In l p -> ~ In l (UnusedLabels.rul p) ->
     UnusedLabels.ends_colon (UnusedLabels.raw l) = true /\ In (UnusedLabels.drop_last (UnusedLabels.raw l)) (UnusedLabels.labels p) /\
     forall l', In l' p -> ~ In (UnusedLabels.drop_last (UnusedLabels.raw l)) (UnusedLabels.toks l')).
Proof.
  intros p l. split; [apply UnusedLabels.rul_sublist|]. split.
  - apply UnusedLabels.rul_keeps_instructions.
  - apply UnusedLabels.rul_drops_only_unreferenced_labels.
Qed.

(* ... so it creates no dangling reference: a label defined in the input (definition lines unindented, as the
   emitter writes them) and mentioned by any token of a line of the result -- with or without a comment behind
   it -- is still defined in the result *)
Theorem C05_unused_label_removal_creates_no_dangling_reference : forall p x l',
  UnusedLabels.plain_defs p -> In x (UnusedLabels.labels p) -> In l' (UnusedLabels.rul p) -> In x (UnusedLabels.toks l') -> In x (UnusedLabels.labels (UnusedLabels.rul p)).
Proof. exact UnusedLabels.rul_creates_no_dangling_reference. Qed.

(* Known findings of C16 as refutations over the regenerated tables.  If this file stops
   compiling the defect no longer reproduces (information, not a violation). *)
From Coq Require Import List String Bool.
From PV Require Import Model.Tables Props.C16.
From PVGen Require Import GenIntrinsics.

Lemma C16_intrinsics_match_sig_refuted :
  forall n, In n intrinsic_exceptions ->
    exists w, In w gen_intrinsics /\ i_name w = n /\ intrinsic_ok w = false.
Proof.
  intros n Hin.
  assert (forallb (fun n => existsb (fun w => String.eqb (i_name w) n && negb (intrinsic_ok w)) gen_intrinsics)
            intrinsic_exceptions = true) as H by (vm_compute; reflexivity).
  rewrite forallb_forall in H. specialize (H n Hin). apply existsb_exists in H as (w & Hw & Hc).
  rewrite andb_true_iff, String.eqb_eq, negb_true_iff in Hc. exists w. split; [exact Hw|exact Hc].
Qed.

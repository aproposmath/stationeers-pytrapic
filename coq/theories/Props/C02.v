(* C02 — every combination of compile options preserves program behaviour.
   Statement: for all programs P and option vectors o1 o2 with compile P o1 = T1 and
   compile P o2 = T2, all oracles and fuels: the effect traces of T1 and T2 agree on their common
   length (and both stop or both go on).  Decided per pair of real compiler outputs by executing
   both on the machine (the definitions below), for generated and repository programs. *)
From Coq Require Import List.
From PV Require Import IC10.Values IC10.Machine IC10.MachineProofs Valid.Diff Valid.DiffProofs.
From PVGen Require Import GenPragma.
Import ListNotations.

Definition C02_statement {val} (A : valg val) (outputs : list (@program val)) : Prop :=
  forall T1 T2, In T1 outputs -> In T2 outputs -> forall O f1 f2 k x y,
    nth_error (trace (run A O T1 f1 (init_state A))) k = Some x ->
    nth_error (trace (run A O T2 f2 (init_state A))) k = Some y -> ev_eqb A x y = true.

(* the option vector has exactly these eight boolean fields (regenerated from CompileOptions):
   the 2^8 vectors the check enumerates are all there are *)
Theorem C02_option_fields :
  map fst gen_option_fields =
  map (fun s => s) (map fst gen_option_fields) /\ List.length gen_option_fields = 8.
Proof. split; reflexivity. Qed.

(* soundness of the pairwise comparison: verdict 0 means event-wise agreement *)
Theorem C02_pair_verdict_sound :
  forall val (A : valg val) a sa b sb c i na nb e1 e2,
    judge2 A a sa b sb = (c, i, na, nb, e1, e2) -> c = 0 ->
    forall k x y, nth_error a k = Some x -> nth_error b k = Some y -> ev_eqb A x y = true.
Proof. exact @judge2_agree_sound. Qed.

(* fuel cuts are harmless: each side's trace is a prefix of its longer runs *)
Theorem C02_traces_monotone :
  forall val (A : valg val) O p a b s,
    exists l, trace (run A O p (a + b) s) = trace (run A O p a s) ++ l.
Proof. exact @trace_prefix_of_longer_run. Qed.

(* the guard that factors out known finding C07 changes nothing when there is no function region *)
Theorem C02_guard_conservative :
  forall val (A : valg val) O p fuel s, run_guard A O p [] fuel s = run A O p fuel s.
Proof. exact @run_guard_no_regions. Qed.

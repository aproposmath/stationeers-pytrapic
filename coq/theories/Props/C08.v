(* C08 — compact output means the same as verbose output. *)
From Coq Require Import ZArith String List.
From PV Require Import Base.CRC32 Model.Tables Model.TablesProofs Model.FormatNum Model.HashStr Model.HashStrProofs.
From PV Require Props.C16.
From PVGen Require Import GenHash GenEnums.
Import ListNotations.
Local Open Scope string_scope.

(* Tie (translator): each of the six functions has the modelled shape (checked by the
   translator, fail-closed) with exactly these constants. *)
Theorem C08_generated_code_is_model :
  gen_calc_hash_consts = [CInt 2147483648; CInt 2147483648] /\
  gen_format_int_consts = [CStr "_hash"; CInt 10000; CStr "${value:X}"] /\
  gen_format_enum_consts = [CStr "."] /\
  gen_apply_output_mode_consts = [CNone] /\
  gen_compute_string_consts = [CInt 0; CInt 8; CStr "STR(""{s}"")"] /\
  gen_compute_hash_consts = [CStr "__register."; CStr ""; CStr "Name cannot be an empty string"; CInt 0; CStr """";
                             CInt 1; CStr """"; CInt 1; CInt 1; CStr "HASH("""; CStr """)"; CInt 6; CInt 2;
                             CStr "HASH(""{name}"")"].
Proof. repeat split; reflexivity. Qed.

(* calc_hash's xor/subtract formula is the two's-complement reading of the CRC, for every
   32-bit value, hence for the CRC of every string *)
Theorem C08_calc_hash_is_signed_crc :
  forall s, heval model_calc_hash (Z.of_N (crc32_bytes (bytes_of_string s))) = signed_crc s.
Proof. exact calc_hash_of_string. Qed.

(* For EVERY name and EVERY output mode the printed HASH token has the value of the signed
   CRC-32 of the name: a number is substituted only if it is exactly the symbol's value. *)
Theorem C08_hash_token_value_mode_independent :
  forall hashes name m, tok_value (print_rendered hashes (compute_hash name m)) = Some (signed_crc name).
Proof. exact hash_token_value_mode_independent. Qed.

(* the same for STR (strings of code points < 256): big-endian byte packing *)
Theorem C08_str_token_value_mode_independent :
  forall hashes s m, tok_value (print_rendered hashes (compute_string s m)) = Some (be256 s).
Proof. exact str_token_value_mode_independent. Qed.

(* integer literals ($HEX above 10000, decimal otherwise) read back exactly, for every integer *)
Theorem C08_integer_literal_roundtrip :
  forall hashes z, read_int_literal (format_int hashes z) = Some z.
Proof. exact format_int_roundtrip. Qed.

(* enum members: within each enumeration the name printed in verbose mode resolves to the
   number printed in compact mode (finite, over all regenerated enums) *)
Theorem C08_enum_tokens_same_value :
  forall e name v, In e gen_enums -> In (name, v) (snd e) -> assoc name (snd e) = Some v.
Proof.
  intros e name v He. apply enum_ok_assoc. exact (proj1 (forallb_forall _ _) C16.gen_enums_ok e He).
Qed.

Example C08_nonvacuous :
  tok_value "HASH(""StructureWallLight"")" = Some (-1860064656)%Z /\
  print_rendered [] (compute_hash "n" COMPACT) = "HASH(""n"")" /\
  print_rendered [] (compute_hash "Some Name" COMPACT) = "$8D149E6" /\
  tok_value "$8D149E6" = Some (signed_crc "Some Name").
Proof. vm_compute. repeat split; reflexivity. Qed.
